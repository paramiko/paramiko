(* Shell-style glob matching over byte strings (list Z): `*` (42) matches any run of
   characters, `?` (63) matches exactly one, every other character matches itself.
   This is fnmatch.fnmatchcase restricted to patterns without `[` (no character classes).
   Stdlib + Lia only. *)
From Coq Require Import ZArith List Bool Lia.
Import ListNotations.
Open Scope Z_scope.

Fixpoint glob (p s : list Z) {struct p} : bool :=
  match p with
  | [] => match s with [] => true | _ :: _ => false end
  | c :: p' =>
      if c =? 42 then
        (fix star (s : list Z) : bool :=
           glob p' s || match s with [] => false | _ :: s' => star s' end) s
      else match s with
           | [] => false
           | x :: s' => ((c =? 63) || (c =? x)) && glob p' s'
           end
  end.

(* declarative meaning *)
Inductive Glob : list Z -> list Z -> Prop :=
| G_nil : Glob [] []
| G_char c p s : c <> 42 -> c <> 63 -> Glob p s -> Glob (c :: p) (c :: s)
| G_any p x s : Glob p s -> Glob (63 :: p) (x :: s)
| G_star_skip p s : Glob p s -> Glob (42 :: p) s
| G_star_eat p x s : Glob (42 :: p) s -> Glob (42 :: p) (x :: s).

Lemma glob_star_unfold p s :
  glob (42 :: p) s = glob p s || match s with [] => false | _ :: s' => glob (42 :: p) s' end.
Proof. destruct s; reflexivity. Qed.

Lemma glob_cons_unfold c p s :
  c <> 42 ->
  glob (c :: p) s = match s with [] => false | x :: s' => ((c =? 63) || (c =? x)) && glob p s' end.
Proof.
  intros H. cbn [glob]. destruct (c =? 42) eqn:E; [apply Z.eqb_eq in E; contradiction|reflexivity].
Qed.

Theorem glob_correct p s : glob p s = true <-> Glob p s.
Proof.
  split.
  - revert s. induction p as [|c p IH]; intros s H.
    + destruct s; [constructor|discriminate].
    + destruct (Z.eq_dec c 42) as [->|Hc].
      * (* `*`: by induction on the text, skipping the star or eating a character *)
        induction s as [|x s IHs]; rewrite glob_star_unfold in H.
        -- rewrite orb_false_r in H. apply G_star_skip, IH, H.
        -- apply orb_true_iff in H as [H|H]; [apply G_star_skip, IH, H|apply G_star_eat, IHs, H].
      * rewrite glob_cons_unfold in H by assumption. destruct s as [|x s]; [discriminate|].
        apply andb_true_iff in H as [H1 H2]. apply orb_true_iff in H1 as [H1|H1]; apply Z.eqb_eq in H1; subst.
        -- apply G_any, IH, H2.
        -- destruct (Z.eq_dec x 63) as [->|Hq]; [apply G_any, IH, H2|apply G_char; auto].
  - induction 1 as [|c p s H1 H2 _ IH|p x s _ IH|p s _ IH|p x s _ IH].
    + reflexivity.
    + rewrite glob_cons_unfold by assumption. now rewrite Z.eqb_refl, orb_true_r, IH.
    + rewrite glob_cons_unfold by lia. now rewrite IH.
    + now rewrite glob_star_unfold, IH.
    + rewrite glob_star_unfold, IH. apply orb_true_r.
Qed.

Lemma Glob_star_split p s : Glob (42 :: p) s <-> exists a b, s = a ++ b /\ Glob p b.
Proof.
  split.
  - intros H. remember (42 :: p) as q eqn:Eq. induction H as [|c p' s Hc _ _ _|p' x s _ _|p' s H _|p' x s _ IH];
      try discriminate.
    + injection Eq as E1 E2. exfalso. apply Hc, E1.
    + injection Eq as ->. exists [], s. auto.
    + destruct (IH Eq) as (a & b & -> & Hb). exists (x :: a), b. auto.
  - intros (a & b & -> & Hb). induction a as [|x a IH]; cbn.
    + apply G_star_skip, Hb.
    + apply G_star_eat, IH.
Qed.

Lemma glob_star_all s : glob [42] s = true.
Proof.
  apply glob_correct. apply Glob_star_split. exists s, []. rewrite app_nil_r. split; [reflexivity|constructor].
Qed.

(* a pattern without wildcards matches exactly itself *)
Definition literal (p : list Z) : bool := forallb (fun c => negb (c =? 42) && negb (c =? 63)) p.

Lemma glob_literal p : literal p = true -> forall s, glob p s = true <-> p = s.
Proof.
  induction p as [|c p IH]; intros Hl s.
  - destruct s; cbn; split; congruence.
  - cbn in Hl. apply andb_true_iff in Hl as [Hc Hl]. apply andb_true_iff in Hc as [H1 H2].
    apply negb_true_iff in H1, H2. apply Z.eqb_neq in H1.
    rewrite glob_cons_unfold by assumption. destruct s as [|x s]; [split; discriminate|].
    rewrite H2. cbn [orb]. rewrite andb_true_iff, Z.eqb_eq, (IH Hl s). split.
    + intros [-> ->]. reflexivity.
    + intros E. injection E as -> ->. auto.
Qed.

Lemma glob_first_char c p s :
  c <> 42 -> c <> 63 -> glob (c :: p) s = true -> exists s', s = c :: s'.
Proof.
  intros H1 H2 H. apply glob_correct in H. inversion H; subst; [eauto | contradiction..].
Qed.
