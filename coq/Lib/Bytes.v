(* Shared byte-level library: stdlib + Lia only. *)
From Coq Require Export ZArith List Bool Lia.
Export ListNotations.
Open Scope Z_scope.

Definition byte_ok (b : Z) : bool := (0 <=? b) && (b <? 256).
Definition bytes_ok (l : list Z) : bool := forallb byte_ok l.

Lemma byte_ok_iff b : byte_ok b = true <-> 0 <= b < 256.
Proof. unfold byte_ok. rewrite andb_true_iff, Z.leb_le, Z.ltb_lt. tauto. Qed.

Lemma bytes_ok_app a b : bytes_ok (a ++ b) = bytes_ok a && bytes_ok b.
Proof. unfold bytes_ok. apply forallb_app. Qed.

Lemma bytes_ok_cons x l : bytes_ok (x :: l) = byte_ok x && bytes_ok l.
Proof. reflexivity. Qed.

Lemma bytes_ok_repeat b n : byte_ok b = true -> bytes_ok (repeat b n) = true.
Proof. intros H. induction n as [|n IH]; [reflexivity|]. cbn [repeat]. rewrite bytes_ok_cons, H, IH. reflexivity. Qed.

Lemma bytes_ok_firstn n l : bytes_ok l = true -> bytes_ok (firstn n l) = true.
Proof.
  revert n. induction l as [|x l IH]; intros [|n] H; cbn in *; try reflexivity.
  apply andb_true_iff in H as [Hx Hl]. now rewrite Hx, IH.
Qed.

Lemma bytes_ok_skipn n l : bytes_ok l = true -> bytes_ok (skipn n l) = true.
Proof.
  revert n. induction l as [|x l IH]; intros [|n] H; cbn in *; try reflexivity; try assumption.
  apply andb_true_iff in H as [Hx Hl]. now apply IH.
Qed.

Fixpoint be_decode_acc (acc : Z) (l : list Z) : Z :=
  match l with
  | [] => acc
  | b :: r => be_decode_acc (acc * 256 + b) r
  end.
Definition be_decode (l : list Z) : Z := be_decode_acc 0 l.

(* the n low-order bytes of v, big-endian *)
Fixpoint be_encode (n : nat) (v : Z) : list Z :=
  match n with
  | O => []
  | S k => be_encode k (v / 256) ++ [v mod 256]
  end.

Lemma be_decode_acc_app acc a b :
  be_decode_acc acc (a ++ b) = be_decode_acc (be_decode_acc acc a) b.
Proof. revert acc. induction a as [|x a IH]; intros acc; cbn; [reflexivity|apply IH]. Qed.

Lemma be_decode_acc_shift acc l :
  be_decode_acc acc l = acc * 256 ^ Z.of_nat (length l) + be_decode l.
Proof.
  unfold be_decode. revert acc. induction l as [|x l IH]; intros acc.
  - cbn. lia.
  - cbn [be_decode_acc length]. rewrite IH. rewrite (IH (0 * 256 + x)).
    rewrite Nat2Z.inj_succ, Z.pow_succ_r by lia. lia.
Qed.

Lemma be_decode_app a b :
  be_decode (a ++ b) = be_decode a * 256 ^ Z.of_nat (length b) + be_decode b.
Proof. unfold be_decode at 1. rewrite be_decode_acc_app. apply be_decode_acc_shift. Qed.

Lemma be_decode_cons x l :
  be_decode (x :: l) = x * 256 ^ Z.of_nat (length l) + be_decode l.
Proof. change (x :: l) with ([x] ++ l). rewrite be_decode_app. cbn. lia. Qed.

Lemma be_decode_nil : be_decode [] = 0.
Proof. reflexivity. Qed.

Lemma be_decode_range l : bytes_ok l = true -> 0 <= be_decode l < 256 ^ Z.of_nat (length l).
Proof.
  induction l as [|x l IH]; intros H.
  - cbn. lia.
  - cbn in H. apply andb_true_iff in H as [Hx Hl]. apply byte_ok_iff in Hx.
    specialize (IH Hl). rewrite be_decode_cons. cbn [length].
    rewrite Nat2Z.inj_succ, Z.pow_succ_r by lia. nia.
Qed.

Lemma be_encode_length n v : length (be_encode n v) = n.
Proof. revert v. induction n as [|n IH]; intros v; cbn; [reflexivity|]. rewrite app_length, IH. cbn. lia. Qed.

Lemma be_encode_ok n v : bytes_ok (be_encode n v) = true.
Proof.
  revert v. induction n as [|n IH]; intros v; cbn; [reflexivity|].
  rewrite bytes_ok_app, IH. cbn. rewrite andb_true_r. apply byte_ok_iff.
  apply Z.mod_pos_bound. lia.
Qed.

Lemma be_decode_encode_mod n v :
  be_decode (be_encode n v) = v mod 256 ^ Z.of_nat n.
Proof.
  revert v. induction n as [|n IH]; intros v.
  - cbn. now rewrite Z.mod_1_r.
  - cbn [be_encode]. rewrite be_decode_app, IH. cbn [length].
    change (be_decode [v mod 256]) with (0 * 256 + v mod 256).
    change (256 ^ Z.of_nat 1) with 256.
    rewrite Nat2Z.inj_succ, Z.pow_succ_r by lia.
    assert (Hp : 0 < 256 ^ Z.of_nat n) by (apply Z.pow_pos_nonneg; lia).
    rewrite Z.rem_mul_r by lia. lia.
Qed.

Lemma be_decode_encode n v :
  0 <= v < 256 ^ Z.of_nat n -> be_decode (be_encode n v) = v.
Proof. intros Hv. rewrite be_decode_encode_mod. apply Z.mod_small, Hv. Qed.

Lemma be_encode_decode l :
  bytes_ok l = true -> be_encode (length l) (be_decode l) = l.
Proof.
  induction l as [|x l IH] using rev_ind; intros H; [reflexivity|].
  rewrite bytes_ok_app in H. apply andb_true_iff in H as [Hl Hx].
  cbn in Hx. rewrite andb_true_r in Hx. apply byte_ok_iff in Hx.
  rewrite app_length. cbn [length]. rewrite Nat.add_1_r. cbn [be_encode].
  rewrite be_decode_app. cbn [length]. change (256 ^ Z.of_nat 1) with 256.
  change (be_decode [x]) with (0 * 256 + x).
  assert (E1 : (be_decode l * 256 + (0 * 256 + x)) / 256 = be_decode l)
    by (rewrite Z.div_add_l by lia; rewrite Z.div_small by lia; lia).
  assert (E2 : (be_decode l * 256 + (0 * 256 + x)) mod 256 = x)
    by (rewrite Z.add_comm, Z.mod_add by lia; apply Z.mod_small; lia).
  rewrite E1, E2.
  now rewrite IH.
Qed.

(* Python exceptions, as a small enum *)
Inductive exn :=
  | SSHExc | IncompatiblePeer | MessageOrderError | EOFErr | SocketTimeout
  | SocketErr | KeyErr | IndexErr | ValueErr | TypeErr | UnicodeErr | StructErr
  | AssertErr | PasswordRequired | AttrErr | IOErr | LibExc (k : Z) | OutOfFuel.

Inductive result (A : Type) := Ok (a : A) | Raise (e : exn).
Arguments Ok {A} a.
Arguments Raise {A} e.

Definition bind {A B} (r : result A) (f : A -> result B) : result B :=
  match r with Ok a => f a | Raise e => Raise e end.

Lemma bind_ok {A B} (r : result A) (f : A -> result B) b :
  bind r f = Ok b -> exists a, r = Ok a /\ f a = Ok b.
Proof. destruct r as [a|e]; [eauto | discriminate]. Qed.

Definition exn_code (e : exn) : Z :=
  match e with
  | SSHExc => 1 | IncompatiblePeer => 2 | MessageOrderError => 3 | EOFErr => 4
  | SocketTimeout => 5 | SocketErr => 6 | KeyErr => 7 | IndexErr => 8
  | ValueErr => 9 | TypeErr => 10 | UnicodeErr => 11 | StructErr => 12
  | AssertErr => 13 | PasswordRequired => 14 | AttrErr => 15 | IOErr => 16
  | LibExc k => 100 + k | OutOfFuel => 99
  end.

Fixpoint zlist_eqb (a b : list Z) : bool :=
  match a, b with
  | [], [] => true
  | x :: a', y :: b' => (x =? y) && zlist_eqb a' b'
  | _, _ => false
  end.

Lemma zlist_eqb_eq a b : zlist_eqb a b = true <-> a = b.
Proof.
  revert b. induction a as [|x a IH]; intros [|y b]; cbn; split; intros H; try congruence; try discriminate.
  - apply andb_true_iff in H as [H1 H2]. apply Z.eqb_eq in H1. apply IH in H2. congruence.
  - injection H as -> ->. rewrite Z.eqb_refl. cbn. now apply IH.
Qed.

Lemma zlist_eqb_spec a b : reflect (a = b) (zlist_eqb a b).
Proof. apply iff_reflect. symmetry. apply zlist_eqb_eq. Qed.

Lemma zlist_eqb_refl a : zlist_eqb a a = true.
Proof. now apply zlist_eqb_eq. Qed.

Lemma zlist_eqb_neq a b : a <> b -> zlist_eqb a b = false.
Proof. intros H. now destruct (zlist_eqb_spec a b). Qed.

(* indices (0-based) of the cases whose model output differs from the expected output *)
Fixpoint mismatches_from {A} (run : A -> list Z) (i : Z) (cs : list (A * list Z)) : list Z :=
  match cs with
  | [] => []
  | (a, e) :: r =>
      if zlist_eqb (run a) e then mismatches_from run (i + 1) r
      else i :: mismatches_from run (i + 1) r
  end.
Definition mismatches {A} (run : A -> list Z) (cs : list (A * list Z)) : list Z :=
  mismatches_from run 0 cs.
