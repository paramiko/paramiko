(* Shared concurrency library: interleavings of per-thread programs and the
   invariant rule.  Stdlib only; small and generic on purpose.

   A thread program is a list of atomic actions (type A).  [interleave ps l]
   holds when [l] is a merge of the programs [ps] that keeps every program's
   own order.  A system is a partial step function [step : S -> A -> option S]
   ([None] = the action is not enabled in that state, e.g. a blocked wait);
   [run] executes a schedule.  The rule [interleave_invariant]: an invariant
   preserved by every enabled atomic action of the programs holds after every
   interleaving of them. *)
From Coq Require Import List Permutation Bool.
Import ListNotations.

Section Interleave.
  Context {A : Type}.

  Inductive interleave : list (list A) -> list A -> Prop :=
  | interleave_done : forall ps, Forall (fun p => p = []) ps -> interleave ps []
  | interleave_step : forall ps1 a p ps2 l,
      interleave (ps1 ++ p :: ps2) l ->
      interleave (ps1 ++ (a :: p) :: ps2) (a :: l).

  Lemma concat_all_nil (ps : list (list A)) :
    Forall (fun p => p = []) ps -> concat ps = [].
  Proof. apply concat_nil_Forall. Qed.

  Lemma interleave_perm ps l : interleave ps l -> Permutation l (concat ps).
  Proof.
    induction 1 as [ps Hnil | ps1 a p ps2 l _ IH].
    - rewrite concat_all_nil by assumption. constructor.
    - rewrite concat_app in *. cbn [concat] in *.
      change ((a :: p) ++ concat ps2) with (a :: (p ++ concat ps2)).
      apply Permutation_cons_app. exact IH.
  Qed.

  Lemma interleave_In ps l a : interleave ps l -> (In a l <-> In a (concat ps)).
  Proof.
    intros H%interleave_perm. split; apply Permutation_in; [|apply Permutation_sym]; exact H.
  Qed.

  Lemma interleave_length ps l : interleave ps l -> length l = length (concat ps).
  Proof. intros H. apply Permutation_length, interleave_perm, H. Qed.

  Lemma interleave_single p : interleave [p] p.
  Proof.
    induction p as [|a p IH].
    - constructor. repeat constructor.
    - exact (interleave_step [] a p [] p IH).
  Qed.

  (* Schedules as lists of thread indices (executable).  [pop k ps]: take the next action of
     thread number k *)
  Fixpoint pop (k : nat) (ps : list (list A)) : option (A * list (list A)) :=
    match ps, k with
    | [], _ => None
    | p :: r, O => match p with [] => None | a :: p' => Some (a, p' :: r) end
    | p :: r, S k' => match pop k' r with
                      | Some (a, r') => Some (a, p :: r')
                      | None => None
                      end
    end.

  Definition is_nil {B} (l : list B) : bool := match l with [] => true | _ => false end.

  Lemma is_nil_true {B} (l : list B) : is_nil l = true <-> l = [].
  Proof. now destruct l. Qed.

  Lemma is_nil_false {B} (l : list B) : is_nil l = false <-> l <> [].
  Proof. now destruct l. Qed.

  (* the merge chosen by the thread-index schedule [ks]; None when the schedule
     names a finished thread or leaves actions behind *)
  Fixpoint merge_by (ks : list nat) (ps : list (list A)) : option (list A) :=
    match ks with
    | [] => if forallb is_nil ps then Some [] else None
    | k :: ks' =>
        match pop k ps with
        | Some (a, ps') => match merge_by ks' ps' with
                           | Some l => Some (a :: l)
                           | None => None
                           end
        | None => None
        end
    end.

  Lemma pop_spec k ps a ps' :
    pop k ps = Some (a, ps') ->
    exists ps1 p ps2, ps = ps1 ++ (a :: p) :: ps2 /\ ps' = ps1 ++ p :: ps2.
  Proof.
    revert k a ps'. induction ps as [|p r IH]; intros k a ps' H.
    - destruct k; discriminate.
    - destruct k as [|k]; cbn in H.
      + destruct p as [|b p']; [discriminate|]. injection H as <- <-.
        exists [], p', r. split; reflexivity.
      + destruct (pop k r) as [[b r']|] eqn:E; [|discriminate].
        injection H as <- <-. destruct (IH _ _ _ E) as (ps1 & q & ps2 & -> & ->).
        exists (p :: ps1), q, ps2. split; reflexivity.
  Qed.

  Lemma merge_by_sound ks ps l : merge_by ks ps = Some l -> interleave ps l.
  Proof.
    revert ps l. induction ks as [|k ks IH]; intros ps l H; cbn in H.
    - destruct (forallb is_nil ps) eqn:E; [|discriminate]. injection H as <-.
      constructor. rewrite forallb_forall in E. apply Forall_forall.
      intros p Hp. specialize (E p Hp). destruct p; [reflexivity|discriminate].
    - destruct (pop k ps) as [[a ps']|] eqn:E; [|discriminate].
      destruct (merge_by ks ps') as [l'|] eqn:E2; [|discriminate]. injection H as <-.
      destruct (pop_spec _ _ _ _ E) as (ps1 & p & ps2 & -> & ->).
      constructor. apply IH. exact E2.
  Qed.
End Interleave.

Section Run.
  Context {S A : Type} (step : S -> A -> option S).

  (* run a schedule; None as soon as an action is not enabled *)
  Fixpoint run (s : S) (l : list A) : option S :=
    match l with
    | [] => Some s
    | a :: r => match step s a with Some s' => run s' r | None => None end
    end.

  Lemma run_app s l1 l2 :
    run s (l1 ++ l2) = match run s l1 with Some s1 => run s1 l2 | None => None end.
  Proof.
    revert s. induction l1 as [|a l1 IH]; intros s; cbn; [reflexivity|].
    destruct (step s a); [apply IH|reflexivity].
  Qed.

  Lemma run_split s pre a post s2 :
    run s (pre ++ a :: post) = Some s2 ->
    exists s0 s1, run s pre = Some s0 /\ step s0 a = Some s1 /\ run s1 post = Some s2.
  Proof.
    rewrite run_app. destruct (run s pre) as [s0|]; [|discriminate]. cbn.
    destruct (step s0 a) as [s1|] eqn:E; [|discriminate]. intros H.
    exists s0, s1. repeat split; assumption.
  Qed.

  Section Inv.
    Variable I : S -> Prop.

    Lemma run_invariant_in l :
      (forall s a s', In a l -> I s -> step s a = Some s' -> I s') ->
      forall s s', I s -> run s l = Some s' -> I s'.
    Proof.
      induction l as [|a l IH]; intros Hpres s s' Hs H; cbn in H.
      - injection H as <-. exact Hs.
      - destruct (step s a) as [s1|] eqn:E; [|discriminate].
        apply (IH (fun s a' s' Hin => Hpres s a' s' (or_intror Hin)) s1 s'); [|exact H].
        apply (Hpres s a s1); [left; reflexivity|exact Hs|exact E].
    Qed.

    Lemma run_invariant :
      (forall s a s', I s -> step s a = Some s' -> I s') ->
      forall l s s', I s -> run s l = Some s' -> I s'.
    Proof. intros Hpres l. apply run_invariant_in. intros s a s' _. apply Hpres. Qed.

    Lemma interleave_invariant (ps : list (list A)) :
      (forall s a s', In a (concat ps) -> I s -> step s a = Some s' -> I s') ->
      forall l, interleave ps l ->
      forall s s', I s -> run s l = Some s' -> I s'.
    Proof.
      intros Hpres l Hil. apply run_invariant_in. intros s a s' Hin.
      apply Hpres. apply (interleave_In ps l a Hil). exact Hin.
    Qed.

    Lemma interleave_invariant_prefix (ps : list (list A)) :
      (forall s a s', In a (concat ps) -> I s -> step s a = Some s' -> I s') ->
      forall l pre post, interleave ps l -> l = pre ++ post ->
      forall s s', I s -> run s pre = Some s' -> I s'.
    Proof.
      intros Hpres l pre post Hil -> . apply run_invariant_in. intros s a s' Hin.
      apply Hpres. apply (interleave_In ps _ a Hil). apply in_or_app. left. exact Hin.
    Qed.
  End Inv.
End Run.
