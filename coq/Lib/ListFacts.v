(* Facts about lists and integers that several properties use and the standard library of
   Coq 8.16 does not state in this form. *)
From Coq Require Import ZArith List Bool Lia.
Import ListNotations.

Section Lists.
Context {A : Type}.
Implicit Types (a b l : list A) (f g : A -> bool).

Lemma firstn_app_exact a b : firstn (length a) (a ++ b) = a.
Proof. rewrite firstn_app, Nat.sub_diag, firstn_all. apply app_nil_r. Qed.

Lemma skipn_app_exact a b : skipn (length a) (a ++ b) = b.
Proof. rewrite skipn_app, Nat.sub_diag, skipn_all. reflexivity. Qed.

Lemma firstn_app_le a b n : n <= length a -> firstn n (a ++ b) = firstn n a.
Proof. intros H. rewrite firstn_app. replace (n - length a) with 0 by lia. apply app_nil_r. Qed.

Lemma skipn_add m n l : skipn (m + n) l = skipn n (skipn m l).
Proof.
  revert l. induction m as [|m IH]; intros [|x l]; cbn; auto.
  symmetry. apply skipn_nil.
Qed.

Lemma skipn_past (buf : list A) pos x rest :
  skipn pos buf = x ++ rest -> skipn (pos + length x) buf = rest.
Proof. intros H. rewrite skipn_add, H. apply skipn_app_exact. Qed.

Lemma firstn_skipn_app (a b : nat) (L : list A) :
  firstn a L ++ firstn b (skipn a L) = firstn (a + b) L.
Proof.
  revert L. induction a as [|a IH]; intros L; [reflexivity|].
  destruct L as [|x L]; [cbn; now rewrite firstn_nil|].
  cbn. now rewrite IH.
Qed.

Lemma firstn_skipn_len k l : firstn k l ++ skipn (length (firstn k l)) l = l.
Proof.
  rewrite firstn_length. destruct (Nat.le_ge_cases k (length l)) as [H | H].
  - rewrite Nat.min_l by exact H. apply firstn_skipn.
  - rewrite Nat.min_r by exact H. rewrite firstn_all2 by exact H. rewrite skipn_all. apply app_nil_r.
Qed.

Lemma firstn_nil_inv (n : Z) l : (1 <= n)%Z -> firstn (Z.to_nat n) l = [] -> l = [].
Proof. intros Hn. destruct l, (Z.to_nat n) eqn:E; try easy. lia. Qed.

Lemma skipn_length_lt n l : 0 < n -> l <> [] -> length (skipn n l) < length l.
Proof. intros Hn Hl. rewrite skipn_length. destruct l; [congruence | cbn [length]; lia]. Qed.

Lemma app_len_inj a b (x y : list A) : length a = length b -> a ++ x = b ++ y -> a = b /\ x = y.
Proof.
  revert b. induction a as [|h a IH]; intros [|h' b] Hl He; cbn in *; try discriminate.
  - now split.
  - injection He as -> He. injection Hl as Hl. destruct (IH _ Hl He) as [-> ->]. now split.
Qed.

Lemma in_snoc l y x : In x (l ++ [y]) <-> In x l \/ x = y.
Proof. rewrite in_app_iff. cbn. intuition congruence. Qed.

Lemma NoDup_snoc l x : NoDup l -> ~ In x l -> NoDup (l ++ [x]).
Proof. intros Hd Hn. apply (NoDup_Add (Add_app x l [])). rewrite app_nil_r. now split. Qed.

Lemma NoDup_map_seq (f : nat -> Z) n : forall a : nat,
  (forall i j, a <= i < a + n -> a <= j < a + n -> f i = f j -> i = j) ->
  NoDup (map f (seq a n)).
Proof.
  induction n as [|n IH]; intros a Hinj; cbn [seq map]; constructor.
  - intros Hin. apply in_map_iff in Hin as (i & Hfi & Hi). apply in_seq in Hi.
    assert (i = a) by (apply Hinj; try lia; exact Hfi). lia.
  - apply IH. intros i j Hi Hj. apply Hinj; lia.
Qed.

Lemma Add_map {B} (f : A -> B) (a : A) l l' : Add a l l' -> Add (f a) (map f l) (map f l').
Proof. induction 1; cbn; constructor; assumption. Qed.

Lemma hd_error_In l x : hd_error l = Some x -> In x l.
Proof. destruct l; cbn; [discriminate|]. intros [= ->]. left. reflexivity. Qed.

Lemma Forall_nth_error (P : A -> Prop) l i (a : A) : Forall P l -> nth_error l i = Some a -> P a.
Proof. intros H E. rewrite Forall_forall in H. apply H. eapply nth_error_In; eauto. Qed.

Lemma Forall_snoc (P : A -> Prop) l (a : A) : Forall P l -> P a -> Forall P (l ++ [a]).
Proof. intros. apply Forall_app. auto. Qed.

Lemma find_split f l x :
  find f l = Some x <->
  exists l1 l2, l = l1 ++ x :: l2 /\ f x = true /\ forall y, In y l1 -> f y = false.
Proof.
  induction l as [|a l IH]; cbn.
  - split; [discriminate|]. intros ([|] & ? & ? & _); discriminate.
  - destruct (f a) eqn:Fa.
    + split.
      * intros [= <-]. exists [], l. repeat split; auto. intros y [].
      * intros ([|b l1] & l2 & E & Fx & Hp); injection E as -> _; [reflexivity|].
        rewrite (Hp b) in Fa by now left. discriminate.
    + rewrite IH. split.
      * intros (l1 & l2 & -> & Fx & Hp). exists (a :: l1), l2. repeat split; auto.
        intros y [<-|Hy]; auto.
      * intros ([|b l1] & l2 & E & Fx & Hp); injection E as -> E; [congruence|].
        exists l1, l2. repeat split; auto. intros y Hy. apply Hp. now right.
Qed.

Lemma hd_filter_find f l : hd_error (filter f l) = find f l.
Proof. induction l as [|a l IH]; cbn; [reflexivity|]. now destruct (f a). Qed.

Lemma find_none_iff f l : find f l = None <-> forall x, In x l -> f x = false.
Proof.
  split; [apply find_none|]. induction l as [|a l IH]; cbn; intros H; [reflexivity|].
  rewrite (H a) by now left. apply IH. intros x Hx. apply H. now right.
Qed.

Lemma filter_nil_iff f l : filter f l = [] <-> forall x, In x l -> f x = false.
Proof.
  induction l as [|a l IH]; cbn; [easy|]. destruct (f a) eqn:Fa.
  - split; [discriminate|]. intros H. rewrite (H a) in Fa by now left. discriminate.
  - rewrite IH. split; intros H x; [intros [<-|]|]; auto.
Qed.

Lemma find_app' f a b :
  find f (a ++ b) = match find f a with Some x => Some x | None => find f b end.
Proof. induction a as [|x a IH]; cbn; [reflexivity|]. destruct (f x); auto. Qed.

Lemma find_filter f g l : find g (filter f l) = find (fun x => f x && g x) l.
Proof.
  induction l as [|a l IH]; cbn; [reflexivity|].
  destruct (f a); cbn; [destruct (g a); auto | exact IH].
Qed.

Lemma filter_filter f g l : filter f (filter g l) = filter (fun x => g x && f x) l.
Proof.
  induction l as [|a l IH]; cbn; [reflexivity|].
  destruct (g a); cbn; [destruct (f a)|]; rewrite IH; reflexivity.
Qed.

Lemma filter_length_le f l : length (filter f l) <= length l.
Proof. induction l; simpl; [lia|]. destruct (f a); simpl; lia. Qed.

Lemma filter_forallb_id f l : forallb f l = true -> filter f l = l.
Proof.
  induction l as [|x l IH]; [reflexivity|]. cbn [forallb filter].
  intros H. apply andb_true_iff in H as [Hx Hl]. now rewrite Hx, IH.
Qed.

Lemma existsb_filter_same f g l :
  (forall x, In x l -> f x = true -> g x = true) -> existsb f (filter g l) = existsb f l.
Proof.
  induction l as [|a l IH]; intros H; cbn; [reflexivity|].
  rewrite <- IH by (intros x Hx; apply H; now right).
  destruct (g a) eqn:G; cbn; [reflexivity|].
  destruct (f a) eqn:F; [|reflexivity]. rewrite (H a) in G by (trivial; now left). discriminate.
Qed.

Lemma forallb_rev f l : forallb f l = true -> forallb f (rev l) = true.
Proof.
  intros H. apply forallb_forall. intros x Hx. apply in_rev in Hx.
  exact (proj1 (forallb_forall _ _) H x Hx).
Qed.

End Lists.

Section Eqb.
Context {A : Type} {eqb : A -> A -> bool} (eqb_eq : forall x y, eqb x y = true <-> x = y).

Lemma existsb_eqb_In x l : existsb (eqb x) l = true <-> In x l.
Proof.
  rewrite existsb_exists. split.
  - intros (y & Hy & ->%eqb_eq). exact Hy.
  - intros H. exists x. split; [exact H | now apply eqb_eq].
Qed.

Lemma existsb_eqb_nIn x l : existsb (eqb x) l = false <-> ~ In x l.
Proof. rewrite <- existsb_eqb_In. symmetry. apply not_true_iff_false. Qed.

End Eqb.

Lemma forallb_flat_map {A B} (p : B -> bool) (f : A -> list B) l :
  (forall x, In x l -> forallb p (f x) = true) -> forallb p (flat_map f l) = true.
Proof.
  induction l as [|x l IH]; intros H; cbn; [reflexivity|].
  rewrite forallb_app, H by (left; reflexivity). cbn. apply IH. intros y Hy. apply H. right. exact Hy.
Qed.

Lemma flat_map_map {A B C} (f : B -> list C) (g : A -> B) (l : list A) :
  flat_map f (map g l) = flat_map (fun x => f (g x)) l.
Proof. induction l as [|x l IH]; [reflexivity|]. cbn. now rewrite IH. Qed.

Lemma flat_map_length_const {A B} (f : A -> list B) n l :
  (forall x, length (f x) = n) -> length (flat_map f l) = (length l * n)%nat.
Proof. intros H. induction l as [|x l IH]; [reflexivity|]. cbn. now rewrite app_length, H, IH. Qed.

Lemma fold_left_collect {A B} (f : A -> B -> A) (M : A -> Prop) (N : B -> Prop) :
  (forall a b, M (f a b) <-> M a \/ N b) ->
  forall l a, M (fold_left f l a) <-> M a \/ exists b, In b l /\ N b.
Proof.
  intros Hf. induction l as [|x l IH]; intros a; cbn.
  - split; [auto|]. intros [H|(b & [] & _)]. exact H.
  - rewrite IH, Hf. split.
    + intros [[H|H]|(b & Hb & Nb)]; eauto.
    + intros [H|(b & [<-|Hb] & Nb)]; eauto.
Qed.

Lemma fold_left_snoc_inv {A B} (f : A -> B -> A) (I : list B -> A -> Prop) l a :
  I [] a -> (forall l' a' b, In b l -> I l' a' -> I (l' ++ [b]) (f a' b)) -> I l (fold_left f l a).
Proof.
  intros H0. induction l as [|b t IH] using rev_ind; intros Hstep; [exact H0|].
  rewrite fold_left_app. apply Hstep; [apply in_or_app; right; now left|].
  apply IH. intros l' a' b' Hb'. apply Hstep, in_or_app. now left.
Qed.

Lemma last_cons {A} (l : list A) x d : last (x :: l) d = last l x.
Proof.
  revert x d. induction l as [|y l IH]; intros x d; [reflexivity|].
  change (last (x :: y :: l) d) with (last (y :: l) d). rewrite (IH y d), (IH y x). reflexivity.
Qed.

Lemma last_app_default {A} (a b : list A) d : last (a ++ b) d = last b (last a d).
Proof.
  revert d. induction a as [|x a IH]; intros d; [reflexivity|].
  change ((x :: a) ++ b) with (x :: (a ++ b)). rewrite !last_cons. apply IH.
Qed.

Local Open Scope Z_scope.

Lemma if_ltb_min a b : (if a <? b then a else b) = Z.min a b.
Proof. destruct (Z.ltb_spec a b); lia. Qed.

Lemma if_ltb_max a b : (if a <? b then b else a) = Z.max a b.
Proof. destruct (Z.ltb_spec a b); lia. Qed.

Lemma mod_inj M a b : 0 < M -> 0 <= a - b < M -> a mod M = b mod M -> a = b.
Proof.
  intros HM Hab He.
  assert (H0 : (a - b) mod M = 0).
  { rewrite Zminus_mod, He, Z.sub_diag. apply Z.mod_0_l. lia. }
  rewrite Z.mod_small in H0 by lia. lia.
Qed.

(* a / b rounded up, times b, is no less than a *)
Lemma ceil_mul a b : 0 <= a -> 0 < b -> a <= Z.of_nat (Z.to_nat ((a + b - 1) / b)) * b.
Proof.
  intros Ha Hb. rewrite Z2Nat.id by (apply Z.div_pos; lia).
  pose proof (Z.mul_succ_div_gt (a + b - 1) b Hb). lia.
Qed.

Lemma masked_disjoint m u k : Z.land m k = 0 -> Z.land (Z.land m (Z.lnot u)) k = 0.
Proof.
  intros H. rewrite <- Z.land_assoc, (Z.land_comm (Z.lnot u) k), Z.land_assoc, H. apply Z.land_0_l.
Qed.

Lemma masked_subset m u : Z.land (Z.land m (Z.lnot u)) (Z.lnot m) = 0.
Proof. apply masked_disjoint, Z.land_lnot_diag. Qed.

Lemma masked_full m u : Z.land u m = 0 -> Z.land m (Z.lnot u) = m.
Proof.
  intros H. apply Z.bits_inj'. intros i Hi.
  rewrite Z.land_spec, Z.lnot_spec by lia.
  assert (Hb : Z.testbit (Z.land u m) i = false) by (rewrite H; apply Z.bits_0).
  rewrite Z.land_spec in Hb.
  destruct (Z.testbit m i); [|reflexivity]. rewrite andb_true_r in Hb. rewrite Hb. reflexivity.
Qed.
