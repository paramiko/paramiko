(* C30 - every SFTP request completes with exactly one well-formed response; a client whose server
   answers every request never blocks forever. *)
From PV Require Import Bytes C30_gen C30 C30_proofs.
Open Scope Z_scope.

(* SERVER.  For every server state, every request (any packet type 0..255 and beyond, any id, any
   handle, any extended name, any callback result including exceptions and non-sense objects,
   undecodable text), one loop iteration of start_subsystem sends exactly one packet, carrying the
   request's id, of a type valid for the request type.  check-file included: every exit path of
   _check_file (invalid handle, no algorithm, stat failure, small block, a read that fails at any
   position, end of file, range done) is modelled, for every script of handle.read results. *)
Theorem C30_server_once :
  forall (s : sst) (q : req),
    exists r, snd (serve s q) = [r] /\ r_id r = q_id q /\ valid_for (q_t q) (r_type r) = true.
Proof. exact server_once. Qed.
Print Assumptions C30_server_once.

(* the server never stops answering: over any request stream, the i-th batch of packets is one
   packet with the i-th request's id *)
Theorem C30_server_stream :
  forall (qs : list req) (s : sst),
    length (serve_all s qs) = length qs /\
    map (fun l => map r_id l) (serve_all s qs) = map (fun q => [q_id q]) qs.
Proof.
  induction qs as [|q qs IH]; intros s; cbn [serve_all]; [split; reflexivity|].
  destruct (server_once s q) as (r & E & I & _). destruct (serve s q) as [s' l]. cbn [snd] in E. subst l.
  destruct (IH s') as [L M]. cbn [length map]. rewrite I, L, M. split; reflexivity.
Qed.
Print Assumptions C30_server_stream.

(* failures are STATUS packets: a handle that is in neither table, for every request type that names one *)
Theorem C30_invalid_handle_status :
  forall s q, handle_kind (kind_of (q_t q)) = true ->
    memz (q_h q) (s_files s) = false -> lookup (q_h q) (s_folders s) = None ->
    serve s q = (s, [status (q_id q) g_SFTP_BAD_MESSAGE]).
Proof.
  intros s q HK HF HD. unfold serve, process.
  destruct (kind_of (q_t q)); try discriminate HK; rewrite ?HF, ?HD; reflexivity.
Qed.
Print Assumptions C30_invalid_handle_status.

(* ... packet types outside CMD_NAMES (the KeyError fall-back), named but unhandled types, and
   unknown extended requests *)
Theorem C30_unsupported_status :
  forall s q,
    (memz (q_t q) g_cmd_names = false -> serve s q = (s, [status (q_id q) g_SFTP_FAILURE])) /\
    (kind_of (q_t q) = KUnhandled -> serve s q = (s, [status (q_id q) g_SFTP_OP_UNSUPPORTED])) /\
    (kind_of (q_t q) = KExtended -> q_text_ok q = true -> q_tag q <> 0 -> q_tag q <> 1 ->
       serve s q = (s, [status (q_id q) g_SFTP_OP_UNSUPPORTED])).
Proof.
  intros s q. unfold serve, process, kind_of. repeat split.
  - intros ->. reflexivity.
  - intros ->. reflexivity.
  - intros -> -> H0%Z.eqb_neq H1%Z.eqb_neq. cbn [negb]. rewrite H0, H1. reflexivity.
Qed.
Print Assumptions C30_unsupported_status.

(* ... and the error code a callback returns is the code the client is told *)
Theorem C30_callback_code_forwarded :
  forall s q k,
    In (kind_of (q_t q)) [KRemove; KRename; KMkdir; KRmdir; KSetstat; KSymlink; KStat; KLstat; KReadlink; KOpen; KOpendir] ->
    q_text_ok q = true -> q_cb q = CbCode k -> 0 <= k < 4294967296 ->
    serve s q = (s, [status (q_id q) k]).
Proof.
  intros s q k HK T C [R1%Z.leb_le R2%Z.ltb_lt]. unfold serve, process. rewrite T, C. cbn [negb In] in *.
  destruct (kind_of (q_t q)); unfold attrs_or_status, send_status_cb, send_status; rewrite ?R1, ?R2;
    try reflexivity; exfalso; repeat (destruct HK as [HK | HK]; [discriminate HK|]); exact HK.
Qed.
Print Assumptions C30_callback_code_forwarded.

(* CLIENT.  Whatever the application does on a session with an open file - pipelined or plain writes
   (recv_ready() true or false), synchronous requests, set_pipelined, close with buffered chunks - and
   whatever the server's replies contain, no call waits for a packet once the server has replied to
   every request made (run = the code as repaired: the drain loop of SFTPFile._write skips requests
   whose reply was already consumed). *)
Theorem C30_client_terminates :
  forall prog : list op, ~ In OBlocked (run true prog f_init c_init).
Proof. intros prog. apply run_never_blocks, wf_init. Qed.
Print Assumptions C30_client_terminates.

(* so every operation of the program completes (returns or raises) *)
Theorem C30_client_completes :
  forall prog : list op, length (run true prog f_init c_init) = length prog.
Proof. intros prog. apply run_length, C30_client_terminates. Qed.
Print Assumptions C30_client_completes.

(* waiting for an expected request whose reply is unread always ends; it is only ever done then *)
Theorem C30_read_response_ends :
  forall w inp exp r i e,
    In w exp -> In w (map p_num inp) -> read_response (Some w) inp exp = (r, i, e) -> r <> RBlocked.
Proof. exact rr_found. Qed.
Print Assumptions C30_read_response_ends.

(* the drain loop as it was before the repair: 60 pipelined writes, a stat, 41 more writes - the
   drain waits for the reply to the first write, which the stat has consumed: blocked forever.
   The repaired loop returns from all 103 operations. *)
Theorem C30_client_terminates_v0_refuted :
  In OBlocked (run false hang_prog f_init c_init) /\ run true hang_prog f_init c_init = repeat ORet 103.
Proof.
  split; [|vm_compute; reflexivity].
  replace (run false hang_prog f_init c_init) with (repeat ORet 102 ++ [OBlocked]) by (vm_compute; reflexivity).
  apply in_or_app. right. now left.
Qed.
Print Assumptions C30_client_terminates_v0_refuted.

(* check-file: exactly one packet on every exit path, for every read script *)
Theorem C30_check_file_once :
  forall s id h a,
    check_file s id h a = Exc [] \/
    exists rt d, check_file s id h a = Done [(rt, id, d)] /\ (rt = g_CMD_STATUS \/ rt = g_CMD_EXTENDED_REPLY).
Proof. exact check_file_shape. Qed.
Print Assumptions C30_check_file_once.

(* a request stream that reaches handles, failures, and a check-file whose third read fails *)
Definition C30_example_reqs : list req :=
  [mkReq 3 7 true (-1) 2 CbHandle cf_none; mkReq 10 8 true 5 2 (CbCode 0) cf_none;
   mkReq 99 9 true 1 2 CbOther cf_none;
   mkReq 200 10 true 1 0 CbOther (mkCf true true 0 1024 256 CbOther 0 [RdBytes 256; RdBytes 256; RdCode 3; RdBytes 256]);
   mkReq 200 11 true 1 0 CbOther (mkCf true true 0 0 0 CbAttr 600 [RdBytes 600; RdBytes 0])].
Example C30_example :
  run_server C30_example_reqs =
    [1; 102; 7; 1; 1; 101; 8; 5; 1; 101; 9; 4; 1; 101; 10; 3; 1; 201; 11; 0].
Proof. vm_compute; reflexivity. Qed.
