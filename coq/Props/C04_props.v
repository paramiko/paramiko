(* C04 -- session keys follow RFC 4253 section 7.2 key derivation and match across the two peers.
   `hash` is the kex engine's hash (a library primitive): any function whose output has a fixed
   length hl > 0.  Letters / size sources / cipher and MAC tables are Gen/C04_gen.v, regenerated
   from paramiko/transport.py on every run. *)
From Coq Require Import Lia.
From PV Require Import Bytes C39 C04_gen C04 C04_proofs.
Open Scope Z_scope.

(* _compute_key returns exactly the first n bytes of the RFC stream
   K1 = HASH(K||H||X||session_id), K(i+1) = HASH(K||H||K1||...||Ki), for every n >= 0, every
   hash length hl > 0 and every i large enough that K1..K(i+1) covers n bytes (never OutOfFuel) *)
Theorem C04_rfc :
  forall (hash : list Z -> list Z) (hl : nat),
    (forall m, length (hash m) = hl) -> (0 < hl)%nat ->
    forall (K : Z) (kb H sid : list Z) (X n : Z) (i : nat),
      add_mpint K = Ok kb -> 0 <= n -> n <= Z.of_nat (S i) * Z.of_nat hl ->
      compute_key hash K H sid X n = Ok (firstn (Z.to_nat n) (rfc_upto hash (kb ++ H) X sid i)).
Proof. exact compute_key_rfc. Qed.
Print Assumptions C04_rfc.

(* "first n bytes of the stream" is well defined: K1..K(i+1) has (i+1)*hl bytes and longer
   concatenations extend shorter ones *)
Theorem C04_stream_prefix :
  forall (hash : list Z -> list Z) (hl : nat),
    (forall m, length (hash m) = hl) ->
    forall pre X sid i d,
      length (rfc_upto hash pre X sid i) = (S i * hl)%nat /\
      exists rest, rfc_upto hash pre X sid (i + d) = rfc_upto hash pre X sid i ++ rest.
Proof.
  intros hash hl Hlen pre X sid i d.
  split; [apply (upto_length hash hl Hlen) | apply upto_extend].
Qed.
Print Assumptions C04_stream_prefix.

(* the derived key has exactly the requested length; the only possible exception is the
   struct.error of add_mpint for a K whose encoding exceeds 2^32 bytes *)
Theorem C04_length_total :
  forall (hash : list Z -> list Z) (hl : nat),
    (forall m, length (hash m) = hl) -> (0 < hl)%nat ->
    forall (K : Z) (H sid : list Z) (X n : Z), 0 <= n ->
      (exists k, compute_key hash K H sid X n = Ok k /\ Z.of_nat (length k) = n) \/
      compute_key hash K H sid X n = Raise StructErr.
Proof.
  intros hash hl Hlen Hpos K H sid X n Hn.
  destruct (add_mpint K) as [kb|e] eqn:HK.
  - left. pose proof (compute_key_ok hash hl Hlen Hpos K kb H sid X n HK Hn) as E.
    eexists. split; [exact E|]. exact (compute_key_length hash hl Hlen Hpos K kb H sid X n _ HK Hn E).
  - right. rewrite (compute_key_raise hash K H sid X n e HK). f_equal. exact (add_mpint_raises K e HK).
Qed.
Print Assumptions C04_length_total.

(* the letters in the source are the RFC 4253 assignment: A/C/E client-to-server IV/key/MAC key,
   B/D/F server-to-client (so a symmetric-but-wrong assignment is excluded) *)
Theorem C04_letters_rfc : forall r d p, gen_letter r d p = rfc_letter r d p.
Proof. intros [] [] []; reflexivity. Qed.
Print Assumptions C04_letters_rfc.

(* client-out = server-in and server-out = client-in: same letter, same size source, and hence,
   for the same negotiated cipher / MAC rows and the same K, H, session id, the same key bytes *)
Theorem C04_peer_match :
  forall (hash : list Z -> list Z) r d p c m K H sid,
    gen_letter r d p = gen_letter (peer r) (flip d) p /\
    gen_size r d p = gen_size (peer r) (flip d) p /\
    session_key hash r d p c m K H sid = session_key hash (peer r) (flip d) p c m K H sid.
Proof.
  intros. split; [|split]; [apply letters_peer | apply sizes_peer | apply session_key_peer].
Qed.
Print Assumptions C04_peer_match.

(* outbound looks up the locally selected cipher / MAC name, inbound the remote one *)
Theorem C04_selectors :
  gen_cipher_sel Outbound = SelLocal /\ gen_cipher_sel Inbound = SelRemote /\
  gen_mac_sel Outbound = SelLocal /\ gen_mac_sel Inbound = SelRemote.
Proof. repeat split; reflexivity. Qed.
Print Assumptions C04_selectors.

(* two derivations with different letters hash inputs that have equal length and differ in the
   letter byte at offset |mpint K| + |H|; if they nevertheless yield the same n >= 1 bytes, the
   hash truncated to min(n, hl) bytes collides on those two different inputs *)
Theorem C04_dir_distinct :
  forall (hash : list Z -> list Z) (hl : nat),
    (forall m, length (hash m) = hl) -> (0 < hl)%nat ->
    forall K kb H sid X Y n k,
      add_mpint K = Ok kb -> X <> Y -> 0 < n ->
      compute_key hash K H sid X n = Ok k -> compute_key hash K H sid Y n = Ok k ->
      let a := kdf_input (kb ++ H) X sid in
      let b := kdf_input (kb ++ H) Y sid in
      let m := Z.to_nat (Z.min n (Z.of_nat hl)) in
      a <> b /\ (0 < m)%nat /\ firstn m (hash a) = firstn m (hash b).
Proof. exact equal_keys_collision. Qed.
Print Assumptions C04_dir_distinct.

Theorem C04_input_letter_offset :
  forall pre X Y sid,
    nth (length pre) (kdf_input pre X sid) 0 = X /\
    length (kdf_input pre X sid) = length (kdf_input pre Y sid) /\
    (X <> Y -> kdf_input pre X sid <> kdf_input pre Y sid).
Proof.
  intros. split; [|split]; [apply kdf_input_letter | apply kdf_input_same_length | apply kdf_input_diff].
Qed.
Print Assumptions C04_input_letter_offset.

(* contrapositive forms: under collision freedom on the two inputs (resp. injectivity when at
   least one whole digest is requested) the two keys differ *)
Theorem C04_dir_distinct_nocollision :
  forall (hash : list Z -> list Z) (hl : nat),
    (forall m, length (hash m) = hl) -> (0 < hl)%nat ->
    forall K kb H sid X Y n kX kY,
      add_mpint K = Ok kb -> X <> Y -> 0 < n ->
      (let m := Z.to_nat (Z.min n (Z.of_nat hl)) in
       firstn m (hash (kdf_input (kb ++ H) X sid)) = firstn m (hash (kdf_input (kb ++ H) Y sid)) ->
       kdf_input (kb ++ H) X sid = kdf_input (kb ++ H) Y sid) ->
      compute_key hash K H sid X n = Ok kX -> compute_key hash K H sid Y n = Ok kY -> kX <> kY.
Proof.
  intros hash hl Hlen Hpos K kb H sid X Y n kX kY HK Hxy Hn Hfree EX EY E. subst kY.
  destruct (C04_dir_distinct hash hl Hlen Hpos K kb H sid X Y n kX HK Hxy Hn EX EY) as [Hab [_ Hc]].
  exact (Hab (Hfree Hc)).
Qed.
Print Assumptions C04_dir_distinct_nocollision.

Theorem C04_dir_distinct_injective :
  forall (hash : list Z -> list Z) (hl : nat),
    (forall m, length (hash m) = hl) -> (0 < hl)%nat ->
    forall K kb H sid X Y n kX kY,
      add_mpint K = Ok kb -> X <> Y -> Z.of_nat hl <= n ->
      (forall a b, hash a = hash b -> a = b) ->
      compute_key hash K H sid X n = Ok kX -> compute_key hash K H sid Y n = Ok kY -> kX <> kY.
Proof.
  intros hash hl Hlen Hpos K kb H sid X Y n kX kY HK Hxy Hn Hinj.
  apply (C04_dir_distinct_nocollision hash hl Hlen Hpos K kb H sid X Y n kX kY HK Hxy); [lia|].
  cbn zeta. rewrite Z.min_r, Nat2Z.id by lia.
  (* the truncation to hl bytes keeps the whole digest *)
  rewrite !firstn_all2 by (rewrite Hlen; lia). apply Hinj.
Qed.
Print Assumptions C04_dir_distinct_injective.

(* over the generated letter table: the six (direction, purpose) letters of a transport are pairwise
   different, so an inbound key of any purpose equal to an outbound key of any purpose (of the same
   length) exhibits a truncated-hash collision *)
Theorem C04_directions_never_share :
  forall (hash : list Z -> list Z) (hl : nat),
    (forall m, length (hash m) = hl) -> (0 < hl)%nat ->
    forall r p1 p2 c1 m1 c2 m2 K kb H sid k,
      add_mpint K = Ok kb ->
      snd (requested r Inbound p1 c1 m1) = snd (requested r Outbound p2 c2 m2) ->
      0 < snd (requested r Inbound p1 c1 m1) ->
      session_key hash r Inbound p1 c1 m1 K H sid = Ok k ->
      session_key hash r Outbound p2 c2 m2 K H sid = Ok k ->
      let a := kdf_input (kb ++ H) (gen_letter r Inbound p1) sid in
      let b := kdf_input (kb ++ H) (gen_letter r Outbound p2) sid in
      let m := Z.to_nat (Z.min (snd (requested r Inbound p1 c1 m1)) (Z.of_nat hl)) in
      a <> b /\ (0 < m)%nat /\ firstn m (hash a) = firstn m (hash b).
Proof.
  intros hash hl Hlen Hpos r p1 p2 c1 m1 c2 m2 K kb H sid k HK Hsz Hn E1 E2.
  unfold session_key, requested in *. cbn [snd] in *. rewrite <- Hsz in E2.
  exact (C04_dir_distinct hash hl Hlen Hpos K kb H sid _ _ _ k HK (letters_dir_differ r p1 p2) Hn E1 E2).
Qed.
Print Assumptions C04_directions_never_share.

Theorem C04_letters_pairwise_distinct :
  forall r d1 p1 d2 p2, gen_letter r d1 p1 = gen_letter r d2 p2 -> d1 = d2 /\ p1 = p2.
Proof. exact letters_injective. Qed.
Print Assumptions C04_letters_pairwise_distinct.

(* requested lengths: IV = the cipher's iv-size if it has one, else its block size; key = key-size;
   MAC key = the digest size of the MAC's hash class (not the truncated transmitted size); and over
   the generated cipher / MAC tables every requested length lies in 1..512 *)
Theorem C04_sizes :
  forall r d c m,
    snd (requested r d IV c m) = match c_iv c with Some v => v | None => c_block c end /\
    snd (requested r d EncKey c m) = c_key c /\
    snd (requested r d MacKey c m) = m_digest m /\
    (In c gen_ciphers -> In m gen_macs ->
       forall p, 1 <= snd (requested r d p c m) <= 512) /\
    (In m gen_macs -> m_size m <= m_digest m).
Proof.
  intros r d c m. destruct (requested_sizes r d c m) as [A [B C]].
  repeat split; try assumption.
  1, 2: apply requested_size_range; assumption.
  apply mac_digest_ge_size_in.
Qed.
Print Assumptions C04_sizes.

(* per kex algorithm of Transport._kex_info (generated table): the hash _compute_key selects -- the class's
   hash_algo, or the sha1 fallback when it declares none -- has a digest length in 1..64, and for any
   hash function of that length the derivation is the RFC stream *)
Theorem C04_rfc_per_kex :
  forall name declared,
    In (name, declared) gen_kex_hashes ->
    let hlz := kex_hash_len declared in
    1 <= hlz <= 64 /\
    forall (hash : list Z -> list Z),
      (forall m, length (hash m) = Z.to_nat hlz) ->
      forall (K : Z) (kb H sid : list Z) (X n : Z) (i : nat),
        add_mpint K = Ok kb -> 0 <= n -> n <= Z.of_nat (S i) * hlz ->
        compute_key hash K H sid X n = Ok (firstn (Z.to_nat n) (rfc_upto hash (kb ++ H) X sid i)).
Proof.
  intros name declared Hin hlz.
  pose proof (kex_hash_len_range name declared Hin) as P. fold hlz in P.
  split; [exact P|].
  intros hash Hlen K kb H sid X n i HK Hn Hi.
  apply (C04_rfc hash (Z.to_nat hlz) Hlen); [|assumption..|]; lia.
Qed.
Print Assumptions C04_rfc_per_kex.

(* for every kex of Transport._kex_info the digest length of the hash _compute_key will select (the class's
   hash_algo, else the sha1 fallback) is the one the kex METHOD specifies (hand-written RFC table by name):
   a class that loses its hash_algo and silently derives keys with sha1 breaks this *)
Theorem C04_kex_hash_spec :
  forall name declared,
    In (name, declared) gen_kex_hashes -> spec_kex_hash_len name = Some (kex_hash_len declared).
Proof.
  intros name declared Hin.
  generalize kex_hashes_match_spec_ok. unfold kex_hashes_match_spec. rewrite forallb_forall.
  intros S. specialize (S _ Hin).
  cbn [fst snd] in S. destruct (spec_kex_hash_len name) as [h|]; [|discriminate S].
  apply Z.eqb_eq in S. now subst h.
Qed.
Print Assumptions C04_kex_hash_spec.

(* the generated _cipher_info / _mac_info rows agree BY NAME with the hand-written RFC tables, so the IV / key /
   integrity-key lengths asked of _compute_key, the block size and the tag length are those the negotiated
   algorithm names specify (a row pointing at a similar hash class, e.g. hmac-md5-96 at sha1, breaks this) *)
Theorem C04_tables_spec :
  forall r d c m,
    In c gen_ciphers -> In m gen_macs ->
    exists k iv b dg tg,
      lookup_name spec_ciphers (c_name c) = Some (k, iv, b) /\
      lookup_name spec_macs (m_name m) = Some (dg, tg) /\
      snd (requested r d IV c m) = iv /\ snd (requested r d EncKey c m) = k /\
      snd (requested r d MacKey c m) = dg /\ c_block c = b /\ m_size m = tg.
Proof.
  intros r d c m Hc Hm.
  destruct (cipher_spec c Hc) as (k & iv & b & Lc & Ek & Eb & Eiv).
  destruct (mac_spec m Hm) as (dg & tg & Lm & Ed & Et).
  destruct (requested_sizes r d c m) as (A & B & C).
  exists k, iv, b, dg, tg. rewrite A, B, C. repeat split; assumption.
Qed.
Print Assumptions C04_tables_spec.

(* non-vacuity: a concrete hash of fixed positive length, a concrete K/H/session id; the model
   computes a 40-byte key from a 3-byte hash (14 digests: K1 and 13 turns of the loop), and the keys of the two
   directions differ *)
Example C04_example :
  (forall m, length (toy_hash 3 m) = 3%nat) /\ (0 < 3)%nat /\
  (exists kb, add_mpint (2 ^ 255 - 19) = Ok kb) /\
  (exists k, compute_key (toy_hash 3) (2 ^ 255 - 19) [1; 2; 3] [4; 5] 65 40 = Ok k /\ length k = 40%nat) /\
  compute_key (toy_hash 3) (2 ^ 255 - 19) [1; 2; 3] [4; 5] 65 40 <>
  compute_key (toy_hash 3) (2 ^ 255 - 19) [1; 2; 3] [4; 5] 66 40 /\
  example_pair_exists = true.
Proof.
  assert (Hpos : (0 < 3)%nat) by lia. assert (Hn : 0 < 40) by lia. assert (Hn' : 0 <= 40) by lia.
  eassert (HK : add_mpint (2 ^ 255 - 19) = Ok _) by (vm_compute; reflexivity).
  pose proof (compute_key_ok (toy_hash 3) 3 (toy_hash_len 3) Hpos _ _ [1; 2; 3] [4; 5] 65 40 HK Hn') as E.
  pose proof (compute_key_length (toy_hash 3) 3 (toy_hash_len 3) Hpos _ _ _ _ _ _ _ HK Hn' E) as L.
  split; [apply toy_hash_len|]. split; [exact Hpos|].
  split; [eexists; exact HK|].
  split; [eexists; split; [exact E|apply Nat2Z.inj; exact L]|].
  split; [|reflexivity].
  (* equal keys would make the two first digests agree on 3 bytes: only those two are evaluated *)
  intros E'. rewrite E in E'.
  assert (Hxy : 65 <> 66) by lia.
  pose proof (C04_dir_distinct (toy_hash 3) 3 (toy_hash_len 3) Hpos _ _ _ _ 65 66 40 _ HK Hxy Hn E (eq_sym E')) as C.
  apply proj2, proj2 in C. revert C. vm_compute. discriminate.
Qed.
