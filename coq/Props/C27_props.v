(* C27 — remote SFTP files behave like local Python binary files.

   The unrestricted statement -- for every mode in {r, r+, w, w+, a, a+, x}, buffer size, initial
   file and op sequence over read / readline / readlines / write / seek / tell / truncate / flush,
       fst (sf_run fuel f0 ops) = fst (ref_run r0 ops)  /\
       final_content fuel (snd (sf_run fuel f0 ops)) = r_content (snd (ref_run r0 ops))
   -- is FALSE for the code as it is: the seven _refuted theorems below are witnesses, one per
   registered known finding.  What is proved instead is the exact complement:
     C27_refines_outside_findings  the statement above for EVERY program that shows none of the
                                   seven finding shapes (boolean predicate no_finding_shape, Model/C27.v),
     C27_shape_partition           every program either satisfies no_finding_shape or has a first
                                   finding shape, one of the seven,
     C27_refuted_shapes            each _refuted witness shows exactly the shape it is named after.
   The only further hypothesis is fuel_suffices: `fuel` bounds the loops of the executable model
   and must be large enough (a model artefact; the differential run evaluates it on every generated
   program).  sf_* is the model of SFTPFile over BufferedFile (C42) over the server handle with its
   __tell cache; ref_* is Lib/FileSpec.v. *)
From PV Require Import Bytes C42 C42_gen C42_proofs FileSpec C27 C27_gen C27_proofs.
Open Scope Z_scope.

(* refinement for every program outside the seven known-finding shapes: all eight op kinds (read(n),
   read(), readline(size), readlines, write, seek with the three whences incl. refused negative
   targets, tell, truncate, flush), every mode (r, r+, w, w+, a, a+, x = paramiko "wx"), every
   buffer size (unbuffered, line-buffered, block-buffered), existing or missing file *)
Theorem C27_refines_outside_findings :
  forall (m : fmode) (bufsz : Z) (file : option (list Z)) (ops : list fop) (fuel : nat)
         (f0 : sfile) (r0 : rfile),
    sf_open m bufsz file = Some f0 -> ref_open m file = Some r0 ->
    no_finding_shape m fuel f0 ops = true -> fuel_suffices fuel f0 ops = true ->
    fst (sf_run fuel f0 ops) = fst (ref_run r0 ops) /\
    final_content fuel (snd (sf_run fuel f0 ops)) = r_content (snd (ref_run r0 ops)).
Proof.
  intros m bufsz file ops fuel f0 r0 Hs Hr Hn Hf.
  unfold no_finding_shape, first_finding in Hn.
  assert (Hm : m <> Mxbare) by (intros ->; discriminate Hn).
  destruct (open_sim _ _ _ _ Hs Hm) as [W V]. rewrite V in Hr. injection Hr as <-.
  apply run_sim; [exact W| |now apply fuel_suffices_enough].
  destruct m; try congruence; now destruct (first_finding_from fuel f0 ops).
Qed.
Print Assumptions C27_refines_outside_findings.

(* the shapes partition the programs *)
Theorem C27_shape_partition :
  forall (m : fmode) (fuel : nat) (f : sfile) (ops : list fop),
    no_finding_shape m fuel f ops = true \/
    exists k, first_finding m fuel f ops = Some k /\ no_finding_shape m fuel f ops = false.
Proof.
  intros m fuel f ops. unfold no_finding_shape.
  destruct (first_finding m fuel f ops) as [k|]; [right; eauto|left; reflexivity].
Qed.
Print Assumptions C27_shape_partition.

(* each _refuted witness below shows exactly the finding shape it is named after *)
Theorem C27_refuted_shapes :
  shape_of Mrp 8 (Some [10;10;121;10;121]) [FWrite [97;10;97;97]; FReadline None] = Some KReadPending /\
  shape_of Mw 65536 (Some []) [FWrite [97;98;99]; FTell] = Some KTellPending /\
  shape_of Mrp 0 (Some [97;10;98;10;99]) [FReadline None; FWrite [88]] = Some KWriteAfterRead /\
  shape_of Mw 64 (Some []) [FWrite [97;98]; FTruncate 0] = Some KTruncPending /\
  shape_of Mr 0 (Some [97;98;99]) [FTruncate 1] = Some KTruncReadOnly /\
  shape_of Ma 0 (Some []) [FWrite [97;98]; FTruncate 0; FWrite [99]; FTell] = Some KStaleAfterTrunc /\
  shape_of Mxbare 0 None [FWrite [97]] = Some KBareX.
Proof. vm_compute. repeat split. Qed.
Print Assumptions C27_refuted_shapes.

(* the read / seek / tell fragment under a purely static condition on the program *)
Theorem C27_refines_read_fragment :
  forall (m : fmode) (bufsz : Z) (file : option (list Z)) (ops : list fop) (fuel : nat)
         (f0 : sfile) (r0 : rfile),
    sf_open m bufsz file = Some f0 -> ref_open m file = Some r0 ->
    m_read m = true -> forallb read_only_op ops = true ->
    (length (r_content r0) < fuel)%nat ->
    fst (sf_run fuel f0 ops) = fst (ref_run r0 ops) /\
    final_content fuel (snd (sf_run fuel f0 ops)) = r_content (snd (ref_run r0 ops)).
Proof.
  intros m bufsz file ops fuel f0 r0 Hs Hr Hm Ho Hf.
  destruct (open_sim _ _ _ _ Hs ltac:(intros ->; discriminate Hm)) as [W V].
  rewrite V in Hr. injection Hr as <-.
  assert (Hw : wbuf f0 = [])
    by (unfold sf_open in Hs; destruct file, (m_excl m), (m_must_exist m); now inversion Hs).
  rewrite (view_nil f0 Hw) in Hf.
  destruct (read_only_outside fuel ops f0 W Hw Ho Hf) as [K F]. now apply run_sim.
Qed.
Print Assumptions C27_refines_read_fragment.

(* _write_all over the server handle: the whole data lands contiguously at _realpos (or at the end
   in append mode), whatever the 32768-byte request splitting *)
Theorem C27_write_all_lands :
  forall (fuel : nat) (f : sfile) (data : list Z),
    (length data < fuel)%nat -> srv_ok (strm f) -> s_app (strm f) = fl_append f -> 0 <= realpos f ->
    (fl_append f = true -> fsize f = zlen (s_content (strm f))) ->
    exists f', write_all s_write fuel f data = Some f' /\
      s_content (strm f') = wa_content (fl_append f) (s_content (strm f)) (realpos f) data.
Proof.
  intros fuel f data H1 H2 H3 H4 H5.
  destruct (write_all_srv fuel f data H1 (conj H2 (conj H3 H5)) H4) as (f' & E & _ & C & _). eauto.
Qed.
Print Assumptions C27_write_all_lands.

(* open() succeeds remotely exactly when it succeeds locally: every mode, missing or existing file *)
Theorem C27_open_agrees :
  forall (m : fmode) (bufsz : Z) (file : option (list Z)),
    sf_open m bufsz file = None <-> ref_open m file = None.
Proof.
  intros m bufsz file. unfold sf_open, ref_open. destruct file as [c|].
  - destruct (m_excl m); split; intros H; try reflexivity; discriminate.
  - destruct (m_must_exist m); split; intros H; try reflexivity; discriminate.
Qed.
Print Assumptions C27_open_agrees.

(* the server handle (after the repair of the append-mode __tell cache) serves exactly the bytes
   at the requested offset, whatever requests came before: it is a prefix reader *)
Theorem C27_server_read_exact :
  forall (c : list Z) (s : srv) (rp n : Z) (d : list Z) (s' : srv),
    sInv c s rp -> 0 < n -> s_read s rp n = (d, s') ->
    sRem s rp = d ++ sRem s' (rp + zlen d) /\ zlen d <= n /\ (d = [] -> sRem s rp = []) /\
    sInv c s' (rp + zlen d).
Proof. exact s_read_spec. Qed.
Print Assumptions C27_server_read_exact.

(* a refused seek (negative target via SEEK_SET / SEEK_CUR / SEEK_END) leaves read-ahead buffer,
   positions and server handle untouched (refines_partial, Proofs/C27_proofs.v, already covers
   refused seeks anywhere in a disciplined program, e.g. after a buffered readline) *)
Theorem C27_refused_seek_keeps_state :
  forall (fuel : nat) (f : sfile) (off whence : Z),
    wbuf f = [] ->
    (if whence =? 0 then off else if whence =? 1 then pos f + off
     else zlen (s_content (strm f)) + off) < 0 ->
    exists f', sf_seek fuel f off whence = (FExn, f') /\
      rbuf f' = rbuf f /\ wbuf f' = [] /\ pos f' = pos f /\ realpos f' = realpos f /\ strm f' = strm f.
Proof.
  intros fuel f off whence Hw Hneg. unfold sf_seek, bf_flush. rewrite Hw, write_all_nil.
  cbn [pos strm upd_wr]. apply Z.ltb_lt in Hneg. rewrite Hneg. eexists. now repeat split.
Qed.
Print Assumptions C27_refused_seek_keeps_state.

(* the model's MAX_REQUEST_SIZE and its table of modes -- wire flags put out by the real
   SFTPClient.open, their translation by the real _convert_pflags (access mode, O_APPEND, O_CREAT,
   O_TRUNC, O_EXCL) and the FLAG_* bits of the SFTPFile returned -- are those of the source
   (regenerated on every run by gen/c27.py), for the 8 mode strings r, r+, w, w+, a, a+, wx, x *)
Theorem C27_source_tables :
  MAX_REQUEST_SIZE = G_MAX_REQUEST_SIZE /\
  forallb open_row_ok G_open_table = true /\ map fst G_open_table = [0; 1; 2; 3; 4; 5; 6; 7].
Proof. split; [reflexivity|]. split; vm_compute; reflexivity. Qed.
Print Assumptions C27_source_tables.

(* Divergences of the code as it is (known findings), each with a concrete witness. *)

(* r+ with bufsize 8: write(b"a\naa"); readline() *)
Theorem C27_read_with_pending_write_refuted :
  diverges Mrp 8 [10;10;121;10;121] [FWrite [97;10;97;97]; FReadline None].
Proof. witness. Qed.
Print Assumptions C27_read_with_pending_write_refuted.

(* w with bufsize 65536: write(b"abc"); tell() *)
Theorem C27_tell_with_pending_write_refuted : diverges Mw 65536 [] [FWrite [97;98;99]; FTell].
Proof. witness. Qed.
Print Assumptions C27_tell_with_pending_write_refuted.

(* r+ unbuffered: readline(); write(b"X") lands at EOF *)
Theorem C27_write_after_readline_refuted :
  diverges Mrp 0 [97;10;98;10;99] [FReadline None; FWrite [88]].
Proof. witness. Qed.
Print Assumptions C27_write_after_readline_refuted.

(* w with bufsize 64: write(b"ab"); truncate(0) -- the later flush re-extends the file *)
Theorem C27_truncate_with_pending_write_refuted : diverges Mw 64 [] [FWrite [97;98]; FTruncate 0].
Proof. witness. Qed.
Print Assumptions C27_truncate_with_pending_write_refuted.

(* r: truncate(1) succeeds *)
Theorem C27_truncate_read_only_refuted : diverges Mr 0 [97;98;99] [FTruncate 1].
Proof. witness. Qed.
Print Assumptions C27_truncate_read_only_refuted.

(* a: write(b"ab"); truncate(0); write(b"c"); tell() *)
Theorem C27_stale_after_truncate_refuted :
  diverges Ma 0 [] [FWrite [97;98]; FTruncate 0; FWrite [99]; FTell].
Proof. witness. Qed.
Print Assumptions C27_stale_after_truncate_refuted.

(* bare "x": write raises on paramiko, succeeds on the reference *)
Theorem C27_bare_x_refuted :
  exists f0 r0, sf_open Mxbare 0 None = Some f0 /\ ref_open Mxbare None = Some r0 /\
    fst (sf_run 100 f0 [FWrite [97]]) <> fst (ref_run r0 [FWrite [97]]).
Proof. eexists _, _. split; [reflexivity|]. split; [reflexivity|]. vm_compute. discriminate. Qed.
Print Assumptions C27_bare_x_refuted.

(* non-vacuity of C27_refines_read_fragment: an "a+" file with bufsize 3, mixed reads and seeks incl.
   a rejected negative seek, meets the hypotheses; the results are the reference's *)
Example C27_example :
  let file := Some [97;98;10;99;100;10;101] in
  let ops := [FTell; FSeek 0 0; FReadline None; FRead (Some 2); FSeek (-9) 1; FSeek (-3) 2; FRead None; FTell] in
  exists f0 r0, sf_open Map 3 file = Some f0 /\ ref_open Map file = Some r0 /\
    m_read Map = true /\ forallb read_only_op ops = true /\
    fst (sf_run 20 f0 ops) =
      [FInt 7; FNone; FBytes [97;98;10]; FBytes [99;100]; FExn; FNone; FBytes [100;10;101]; FInt 7].
Proof. eexists _, _. repeat split. Qed.

(* the disciplined fragment (`guarded`; refines_partial and guarded_outside in Proofs/C27_proofs.v):
   a block-buffered (bufsize 4) "r+" program mixing reads, seeks, buffered writes crossing the
   buffer size, flush and a final truncate is guarded *)
Example C27_example_disciplined :
  let file := Some [97;98;10;99;100;10;101] in
  let ops := [FReadline None; FSeek 0 1; FWrite [120;121]; FWrite [122;10;119]; FFlush; FTell;
              FSeek 1 0; FRead (Some 3); FSeek (-2) 2; FWrite [113]; FSeek 0 1; FTruncate 9] in
  exists f0 r0, sf_open Mrp 4 file = Some f0 /\ ref_open Mrp file = Some r0 /\
    guarded 40 f0 ops = true /\
    final_content 40 (snd (sf_run 40 f0 ops)) = [97;98;10;120;121;122;113;119;0].
Proof. eexists _, _. repeat split. Qed.

(* non-vacuity of C27_refines_outside_findings: a long mixed program on a line-buffered "a+" file --
   readlines, sized and unsized readline, reads, appending writes with and without newline, seeks
   through the three whences incl. a refused one, flush, tell, and a final truncate -- shows no
   finding shape, has enough fuel, and ends with the stated contents *)
Example C27_example_outside_findings :
  let file := Some [97;98;10;99;100;10;101] in
  let ops := [FTell; FSeek 0 0; FReadline (Some 2); FReadline None; FSeek 0 1; FWrite [120;10;121];
              FSeek (-4) 2; FReadlines; FTell; FSeek (-50) 1; FRead (Some 3); FSeek 1 0; FWrite [122];
              FFlush; FTell; FSeek 3 0; FRead None; FSeek 0 1; FWrite [10]; FSeek 0 2; FTell;
              FTruncate 11] in
  exists f0 r0, sf_open Map 1 file = Some f0 /\ ref_open Map file = Some r0 /\
    no_finding_shape Map 60 f0 ops = true /\ fuel_suffices 60 f0 ops = true /\
    final_content 60 (snd (sf_run 60 f0 ops)) = [97;98;10;99;100;10;101;120;10;121;122].
Proof. eexists _, _. repeat split. Qed.
