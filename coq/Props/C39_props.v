(* C39 — SSH wire encoding round-trips and integers are encoded canonically. *)
From PV Require Import Bytes C39 C39_gen C39_proofs.
Open Scope Z_scope.

(* every value written is read back unchanged, in order, consuming exactly its encoding,
   whatever follows it in the buffer *)
Theorem C39_roundtrip :
  forall (fs : list field) (bs rest : list Z),
    forallb field_wf fs = true ->
    encode_all fs = Ok bs ->
    decode_all (map kind_of fs) (bs ++ rest) 0 = (fs, length bs).
Proof. exact roundtrip. Qed.
Print Assumptions C39_roundtrip.

(* already-read bytes plus the unread remainder equal the whole message, after any
   sequence of reads (including reads that run past the end and are zero padded) *)
Theorem C39_so_far_remainder :
  forall (ks : list kind) (buf : list Z) (pos : nat),
    get_so_far buf (snd (decode_all ks buf pos)) ++ get_remainder buf (snd (decode_all ks buf pos)) = buf.
Proof. intros ks buf pos. apply firstn_skipn. Qed.
Print Assumptions C39_so_far_remainder.

(* the integer codec is a bijection onto its image *)
Theorem C39_inflate_deflate : forall n : Z, inflate_long (deflate_long n true) false = n.
Proof. exact inflate_deflate. Qed.
Print Assumptions C39_inflate_deflate.

(* deflate_long yields the minimal two's complement big-endian form of n *)
Theorem C39_minimal :
  forall n : Z,
    let s := deflate_long n true in
    bytes_ok s = true /\ (1 <= length s)%nat /\ sval s = n /\ minimal s = true.
Proof. exact deflate_minimal. Qed.
Print Assumptions C39_minimal.

(* RFC 4251: zero is the empty string *)
Theorem C39_zero_empty : add_mpint 0 = Ok [0; 0; 0; 0].
Proof. reflexivity. Qed.
Print Assumptions C39_zero_empty.

(* and any other mpint is the string holding its minimal two's complement form *)
Theorem C39_mpint_canonical :
  forall n bs, n <> 0 -> add_mpint n = Ok bs ->
    exists s, bs = be_encode 4 (Z.of_nat (length s)) ++ s /\ s <> [] /\
              sval s = n /\ minimal s = true.
Proof.
  intros n bs Hn H. unfold add_mpint in H.
  destruct (Z.eqb_spec n 0) as [E|_]; [contradiction|].
  apply add_string_ok in H as [_ ->].
  destruct (deflate_minimal n) as (_ & Hl & Hv & Hm). cbv zeta in *.
  exists (deflate_long n true). split; [reflexivity|]. split; [|split; assumption].
  intros E. rewrite E in Hl. cbn in Hl. lia.
Qed.
Print Assumptions C39_mpint_canonical.

(* used by C06 / C14: the encoding of a typed field list determines the fields *)
Theorem C39_injective :
  forall fs1 fs2 bs,
    forallb field_wf fs1 = true -> forallb field_wf fs2 = true ->
    map kind_of fs1 = map kind_of fs2 ->
    encode_all fs1 = Ok bs -> encode_all fs2 = Ok bs -> fs1 = fs2.
Proof. exact encode_injective. Qed.
Print Assumptions C39_injective.

(* the literals gen/c39.py extracts from message.py / util.py / common.py on every run (after checking
   every modelled function body against its statement-by-statement template) are the model's *)
Theorem C39_source_constants :
  c39_big_int = big_int /\
  (* get_bytes pads short reads only below 1 << 20 *)
  (forall buf n, snd (get_bytes buf 0 n) = length (fst (get_bytes buf 0 n)) \/ n < 2 ^ c39_pad_shift) /\
  2 ^ c39_pad_shift = 2 ^ 20 /\
  (* struct formats and the byte counts read for them *)
  c39_fmt_u32_bytes = 4 /\ c39_n_u32 = c39_fmt_u32_bytes /\
  c39_fmt_u64_bytes = 8 /\ c39_n_u64 = c39_fmt_u64_bytes /\
  c39_n_byte = 1 /\ c39_n_byte + c39_n_adaptive_rest = c39_fmt_u32_bytes /\
  (* name-list separator *)
  join_comma [[1]; [2]] = [1; c39_sep; 2] /\ split_comma [1; c39_sep; 2] = [[1]; [2]] /\
  (* deflate_long: 32-bit limbs masked with 0xffffffff, FF / sign-bit tests *)
  c39_mask32 = 2 ^ c39_def_shift - 1 /\ c39_def_shift = 32 /\ c39_def_ff = 255 /\ c39_def_sign = 128 /\
  deflate_long (c39_def_sign - 1) true = [c39_def_sign - 1] /\
  deflate_long c39_def_sign true = [c39_zero_byte; c39_def_sign] /\
  deflate_long (- c39_def_sign) true = [c39_def_sign] /\
  deflate_long (- c39_def_sign - 1) true = [c39_max_byte; c39_def_sign - 1] /\
  (* inflate_long: words of 4 bytes shifted by 32, sign bit 0x80, 8 bits per byte *)
  c39_inf_word = 4 /\ c39_inf_shift = c39_inf_bits * c39_inf_word /\ c39_inf_bits = 8 /\ c39_inf_sign = 128 /\
  inflate_long [c39_inf_sign - 1] false = c39_inf_sign - 1 /\
  inflate_long [c39_inf_sign] false = - c39_inf_sign /\
  (* the three byte constants of paramiko.common *)
  c39_zero_byte = 0 /\ c39_one_byte = 1 /\ c39_max_byte = 255 /\
  encode_field (FBool true) = Ok [c39_one_byte] /\ encode_field (FBool false) = Ok [c39_zero_byte] /\
  encode_field (FAdaptive c39_big_int) = Ok (c39_max_byte :: be_encode 4 5 ++ [0; 255; 0; 0; 0]) /\
  encode_field (FAdaptive (c39_big_int - 1)) = Ok (be_encode 4 (c39_big_int - 1)).
Proof.
  split; [reflexivity|]. split; [exact (fun buf n => get_bytes_pad_bound buf 0 n)|].
  (* what is left are closed equations between literals *)
  repeat apply conj; reflexivity.
Qed.
Print Assumptions C39_source_constants.

(* non-vacuity: a concrete non-trivial field list meets the hypotheses *)
Example C39_example :
  forallb field_wf [FMpint (-129); FList [[97]; [98; 99]]; FAdaptive (2 ^ 40); FBool true] = true /\
  exists bs, encode_all [FMpint (-129); FList [[97]; [98; 99]]; FAdaptive (2 ^ 40); FBool true] = Ok bs.
Proof. split; [reflexivity | eexists; vm_compute; reflexivity]. Qed.
