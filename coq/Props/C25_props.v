(* C25 — Channel.sendall / sendall_stderr either hand every byte to the transport or raise;
   they never return early and never loop forever. *)
From PV Require Import Bytes C25_gen C25 C25_proofs.
Open Scope Z_scope.

(* For every channel state, data, stream, environment (events between and during the calls of
   send) and fuel: the bytes handed to the transport followed by the unsent rest are exactly
   the data (nothing lost, duplicated or reordered); every message is of the stream's type;
   normal return happens only when every byte was handed over; any other outcome leaves
   unsent data (so it is never reported as success). *)
Theorem C25_total :
  forall (fuel : nat) (stderr : bool) (c : chan) (s : list Z) (rounds : list round),
    let f := sendall fuel stderr c s rounds [] in
    payload (f_trace f) ++ f_rest f = s /\
    Forall (fun m => fst m = kind stderr) (f_trace f) /\
    (f_out f = Done -> payload (f_trace f) = s /\ f_rest f = []) /\
    (f_out f <> Done -> f_rest f <> []).
Proof. exact total. Qed.
Print Assumptions C25_total.

(* The loop terminates: len(data) iterations always suffice (the model never runs out of
   fuel), because every iteration that does not raise hands over a non-empty chunk.
   Side conditions: window >= 0, window adjustments >= 0 (they are uint32 on the wire) and
   out_max_packet_size > 64 (Transport._sanitize_packet_size gives >= 4096). *)
Theorem C25_terminates :
  forall (stderr : bool) (c : chan) (s : list Z) (rounds : list round),
    chan_ok c = true -> Forall (fun r => round_ok r = true) rounds ->
    let f := sendall (length s) stderr c s rounds [] in
    f_out f <> Fuel /\ Forall (fun m => snd m <> []) (f_trace f).
Proof. exact terminates. Qed.
Print Assumptions C25_terminates.

(* ... and the only outcomes are: return, socket.error, socket.timeout, or asleep in
   out_buffer_cv.wait with no further wake-up (waiting for the peer, not looping) *)
Theorem C25_outcomes :
  forall (fuel : nat) (stderr : bool) (c : chan) (s : list Z) (rounds : list round),
    chan_ok c = true -> Forall (fun r => round_ok r = true) rounds -> (length s <= fuel)%nat ->
    let f := sendall fuel stderr c s rounds [] in
    f_out f = Done \/ f_out f = Raised SocketErr \/ f_out f = Raised SocketTimeout \/ f_out f = Blocked.
Proof. exact outcomes. Qed.
Print Assumptions C25_outcomes.

(* closed (close, peer CLOSE, transport loss) or shut down for writing (shutdown_write): a
   sendall of non-empty data raises socket.error at once and hands nothing to the transport;
   `pre` are the events that precede the call, so this covers "closed / shut down at any time
   before a call of send", for the first call and (c, s being arbitrary) every later one *)
Theorem C25_raises_when_closed_or_shutdown :
  forall (fuel : nat) (stderr : bool) (c : chan) (s : list Z) (pre : list ev) (wakes : list wake)
         (rest : list round),
    s <> [] -> dead (apply_evs pre c) = true ->
    sendall (S fuel) stderr c s ((pre, wakes) :: rest) [] =
      mkFinal (Raised SocketErr) (apply_evs pre c) [] s.
Proof.
  intros fuel st c s pre wakes rest Hs Hd. destruct s as [|x s]; [congruence|]. cbn [sendall hd].
  unfold send. cbn [fst snd]. destruct (closed (apply_evs pre c)); [reflexivity|].
  unfold wait_for_send_window. rewrite Hd. reflexivity.
Qed.
Print Assumptions C25_raises_when_closed_or_shutdown.

(* non-blocking mode and no window: socket.timeout at once *)
Theorem C25_nonblocking_times_out :
  forall (fuel : nat) (stderr : bool) (c : chan) (s : list Z) (pre : list ev) (wakes : list wake)
         (rest : list round),
    s <> [] -> dead (apply_evs pre c) = false -> window (apply_evs pre c) = 0 ->
    timeout c = Some 0 ->
    sendall (S fuel) stderr c s ((pre, wakes) :: rest) [] =
      mkFinal (Raised SocketTimeout) (apply_evs pre c) [] s.
Proof.
  intros fuel st c s pre wakes rest Hs Hd Hw Ht. destruct s as [|x s]; [congruence|]. cbn [sendall hd].
  unfold send, wait_for_send_window. cbn [fst snd].
  destruct (apply_evs_cfg pre c) as [_ ->]. rewrite Hd, Hw, Ht.
  apply orb_false_iff in Hd as [-> _]. reflexivity.
Qed.
Print Assumptions C25_nonblocking_times_out.

(* with a timeout set (timed or non-blocking) sendall never stays asleep *)
Theorem C25_blocked_only_in_blocking_mode :
  forall (fuel : nat) (stderr : bool) (c : chan) (s : list Z) (rounds : list round) (tr : list msg),
    f_out (sendall fuel stderr c s rounds tr) = Blocked -> timeout c = None.
Proof.
  induction fuel as [|fuel IH]; intros st c s rs tr H; destruct s as [|x s]; cbn [sendall] in H;
    try discriminate H.
  destruct (send_spec st c (x :: s) (hd ([], []) rs)) as ([_ Ht] & Hb & _).
  destruct (send st c (x :: s) (hd ([], []) rs)) as [n out c'|e c'|c']; cbn [schan] in Ht.
  - destruct (n =? 0); [discriminate H|]. rewrite <- Ht. exact (IH _ _ _ _ _ H).
  - discriminate H.
  - exact Hb.
Qed.
Print Assumptions C25_blocked_only_in_blocking_mode.

(* why the repair was needed: the loop as it was (no test of send's result) never ends after
   shutdown_write — for every fuel the model runs out of fuel having sent nothing *)
Theorem C25_unrepaired_loop_diverges :
  forall (fuel : nat) (stderr : bool) (c : chan) (s : list Z),
    s <> [] -> closed c = false -> eof_sent c = true ->
    sendall_v0 fuel stderr c s [] [] = mkFinal Fuel c [] s.
Proof.
  induction fuel as [|fuel IH]; intros st c s Hs Hc He; destruct s as [|x s]; try congruence; cbn [sendall_v0].
  - reflexivity.
  - cbn [hd]. unfold send. cbn [fst snd apply_evs fold_left]. rewrite Hc.
    unfold wait_for_send_window, dead. rewrite Hc, He. cbn [orb Z.eqb skipn Z.to_nat tl].
    apply IH; auto; discriminate.
Qed.
Print Assumptions C25_unrepaired_loop_diverges.

(* the message numbers and the per-packet overhead (max packet - 64) written in the model are
   the ones gen/c25.py reads from common.py / channel.py on every run *)
Theorem C25_source_constants :
  MSG_CHANNEL_DATA = src_msg_channel_data /\
  MSG_CHANNEL_EXTENDED_DATA = src_msg_channel_extended_data /\
  take_window (mkChan false false 1000 (src_packet_overhead + 1) None) 1000
    = WSize 1 (mkChan false false 999 (src_packet_overhead + 1) None).
Proof. vm_compute. repeat split; reflexivity. Qed.
Print Assumptions C25_source_constants.

(* non-vacuity: a well-formed channel with a 5-byte window and a 7-byte packet limit sends 12
   bytes in two chunks while the peer re-opens the window; then the same data after
   shutdown_write raises *)
Example C25_example :
  let c := mkChan false false 5 71 None in
  let rounds := [([], []); ([], [(Some (EvAdjust 20), 1)]); ([], [])] in
  chan_ok c = true /\ Forall (fun r => round_ok r = true) rounds /\
  f_out (sendall 12 false c [1;2;3;4;5;6;7;8;9;10;11;12] rounds []) = Done /\
  f_trace (sendall 12 false c [1;2;3;4;5;6;7;8;9;10;11;12] rounds [])
    = [(94, [1;2;3;4;5]); (94, [6;7;8;9;10;11;12])] /\
  f_out (sendall 12 true c [1;2;3] [([EvShutWrite], [])] []) = Raised SocketErr.
Proof.
  cbv zeta. split; [reflexivity|]. split; [repeat constructor|].
  split; [vm_compute; reflexivity|]. split; vm_compute; reflexivity.
Qed.
