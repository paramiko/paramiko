(* C41 — known-hosts lookup, save and reload agree; loading is idempotent.
   hm is the host-hash oracle (which plain names a hashed token stands for); every theorem
   holds for every oracle, every table and every file, of any size. *)
From PV Require Import Bytes C41_gen C41 C41_proofs.
Open Scope Z_scope.

(* lookup returns exactly the entries that list the hostname (plain or hashed), in table
   order: it equals the table filtered by any decision procedure for `lists`; it is empty
   (Python: None) exactly when no entry lists the host *)
Theorem C41_lookup_spec :
  forall (hm : hmap) (st : state) (q : name),
    (forall e, In e (lookup hm st q) <-> In e st /\ lists hm q e) /\
    (forall f : entry -> bool, (forall e, f e = true <-> lists hm q e) -> lookup hm st q = filter f st) /\
    (lookup hm st q = [] <-> forall e, In e st -> ~ lists hm q e).
Proof.
  intros hm st q. split; [intro e; apply lookup_in|]. split; [|apply lookup_nil].
  intros f Hf. unfold lookup. apply filter_ext. intros e.
  apply eq_true_iff_eq. now rewrite hostname_matches_iff, Hf.
Qed.
Print Assumptions C41_lookup_spec.

(* the key reported for a key type is the key of the FIRST entry of the table that lists the
   host and has that type *)
Theorem C41_first_per_type :
  forall (hm : hmap) (st : state) (q : name) (t : Z) (k : key),
    eff hm st q t = Some k <->
    exists s1 e s2, st = s1 ++ e :: s2 /\ lists hm q e /\ ktype (snd e) = t /\ snd e = k /\
      forall e', In e' s1 -> ~ (lists hm q e' /\ ktype (snd e') = t).
Proof. exact first_per_type. Qed.
Print Assumptions C41_first_per_type.

(* check(host, key) is true exactly when key is that effective key; at most one key per type
   passes *)
Theorem C41_check_iff :
  forall (hm : hmap) (st : state) (q : name) (k : key),
    (check hm st q k = true <-> eff hm st q (ktype k) = Some k) /\
    (check hm st q k = true <->
     exists s1 e s2, st = s1 ++ e :: s2 /\ lists hm q e /\ snd e = k /\
       forall e', In e' s1 -> ~ (lists hm q e' /\ ktype (snd e') = ktype k)) /\
    (forall k', check hm st q k = true -> check hm st q k' = true -> ktype k' = ktype k -> k' = k).
Proof.
  intros hm st q k. split; [apply check_iff|]. split.
  - rewrite check_iff, first_per_type. split.
    + intros (s1 & e & s2 & H1 & H2 & H3 & H4 & H5). now exists s1, e, s2.
    + intros (s1 & e & s2 & H1 & H2 & H4 & H5). exists s1, e, s2. now rewrite H4.
  - intros k' H1 H2 Ht. apply check_iff in H1, H2. rewrite Ht in H2. congruence.
Qed.
Print Assumptions C41_check_iff.

(* saving and loading the saved file into an empty table gives the same effective key for
   every host and key type, the same check() results and the same found / not found answer *)
Theorem C41_save_reload :
  forall (hm : hmap) (st : state),
    (forall q t, eff hm (load hm [] (save st)) q t = eff hm st q t) /\
    (forall q k, check hm (load hm [] (save st)) q k = check hm st q k) /\
    (forall q, lookup hm (load hm [] (save st)) q = [] <-> lookup hm st q = []).
Proof.
  intros hm st. pose proof (save_reload_eff hm st) as E. split; [exact E|]. split.
  - intros q k. apply eq_true_iff_eq. now rewrite !check_iff, E.
  - intros q.
    (* no entry lists q exactly when q has no effective key of any type *)
    assert (G : forall s, lookup hm s q = [] <-> forall t, eff hm s q t = None).
    { intros s. unfold eff. split; [now intros -> |].
      destruct (lookup hm s q) as [|e l]; [reflexivity|]. intros H. specialize (H (ktype (snd e))).
      unfold subdict_get in H. cbn in H. now rewrite Z.eqb_refl in H. }
    rewrite !G. now setoid_rewrite E.
Qed.
Print Assumptions C41_save_reload.

(* loading a file into any table and then loading the same file again leaves the table
   itself unchanged, hence lookups, SubDict key lists, check(), keys() and the saved output *)
Theorem C41_load_idempotent :
  forall (hm : hmap) (st : state) (f : list line),
    let st1 := load hm st f in
    load hm st1 f = st1 /\
    (forall q, lookup hm (load hm st1 f) q = lookup hm st1 q) /\
    (forall q, subdict_keys (lookup hm (load hm st1 f) q) = subdict_keys (lookup hm st1 q)) /\
    (forall q k, check hm (load hm st1 f) q k = check hm st1 q k) /\
    keys (load hm st1 f) = keys st1 /\
    save (load hm st1 f) = save st1.
Proof. intros hm st f st1. unfold st1. rewrite load_twice. now repeat split. Qed.
Print Assumptions C41_load_idempotent.

(* a line whose key field is not base64 (truncated key, @cert-authority / @revoked marker line)
   makes load raise InvalidHostKey after the lines before it; loading that file again raises
   again and leaves the table as the first attempt left it *)
Theorem C41_load_idempotent_raising :
  forall (hm : hmap) (st : state) (f : list tline),
    let r := load_t hm st f in load_t hm (fst r) f = r.
Proof.
  intros hm st f. unfold load_t. destruct (good_prefix f) as [p b]. cbn [fst]. now rewrite load_twice.
Qed.
Print Assumptions C41_load_idempotent_raising.

(* hostkeys[q][t] = k (SubDict.__setitem__) makes k the effective key of q: it replaces the
   first listing entry of that type, whichever name (plain or hashed) lists q *)
Theorem C41_subdict_set_effective :
  forall (hm : hmap) (st : state) (q : name) (t : Z) (k : key) (st' : state),
    ktype k = t -> sub_set hm st q t k = Ok st' ->
    eff hm st' q t = Some k /\ check hm st' q k = true.
Proof.
  intros hm st q t k st' <- H.
  assert (G : eff hm st' q (ktype k) = Some k).
  { unfold sub_set in H. destruct (lookup hm st q); [discriminate|].
    pose proof (sub_replace_eff hm q k st) as R.
    destruct (sub_replace hm st q (ktype k) k) as [s1|]; injection H as <-; [exact R|].
    now rewrite eff_app, R, sel_self. }
  split; [exact G | now apply check_iff].
Qed.
Print Assumptions C41_subdict_set_effective.

(* the source shape the loader of the model was selected by (gen/c41.py, fail-closed) *)
Theorem C41_source_shape :
  gen_load_iterates_copy = true /\ gen_load_uses_has_entry = true /\ gen_shapes_pinned = true.
Proof. exact (conj eq_refl (conj eq_refl eq_refl)). Qed.
Print Assumptions C41_source_shape.

(* the loop of the repaired load (remove from the list while iterating over a copy of it)
   drops exactly the names already known with that key *)
Theorem C41_prune_is_filter :
  forall (known : name -> bool) (names : list name),
    prune known names = filter (fun h => negb (known h)) names.
Proof. exact prune_filter. Qed.
Print Assumptions C41_prune_is_filter.

(* the loader before the repair (index-based iteration over the list being shrunk, duplicate
   test by check()) is not idempotent: the line "a,b,c key" loaded twice adds an entry [b] *)
Theorem C41_load_idempotent_v0_refuted :
  exists hm f, load_v0 hm (load_v0 hm [] f) f <> load_v0 hm [] f.
Proof.
  exists [], [LEntry [Nm false 1; Nm false 2; Nm false 3] (1, 1)]. vm_compute. discriminate.
Qed.
Print Assumptions C41_load_idempotent_v0_refuted.

(* iterating over a copy alone is not enough: with check() as duplicate test a key shadowed
   by an earlier key of the same type ("a K1" / "a K2") is appended again by every load *)
Theorem C41_load_idempotent_v1_refuted :
  exists hm f, load_v1 hm (load_v1 hm [] f) f <> load_v1 hm [] f.
Proof.
  exists [], [LEntry [Nm false 1] (1, 1); LEntry [Nm false 1] (1, 2)]. vm_compute. discriminate.
Qed.
Print Assumptions C41_load_idempotent_v1_refuted.

(* non-vacuity: a table with a hashed entry, a multi-host entry and a shadowed key *)
Definition ex_hm : hmap := [(1, 7)].                       (* token 7 is the hash of host 1 *)
Definition ex_st : state :=
  [([Nm true 7], (1, 10)); ([Nm false 1; Nm false 2], (1, 11)); ([Nm false 1], (2, 12))].

Example C41_example_lookup :
  lookup ex_hm ex_st (Nm false 1) = ex_st /\
  eff ex_hm ex_st (Nm false 1) 1 = Some (1, 10) /\
  eff ex_hm ex_st (Nm false 2) 1 = Some (1, 11) /\
  check ex_hm ex_st (Nm false 1) (1, 10) = true /\
  check ex_hm ex_st (Nm false 1) (1, 11) = false /\
  check ex_hm ex_st (Nm false 1) (2, 12) = true.
Proof. vm_compute. repeat split. Qed.

Example C41_example_subset :
  sub_set ex_hm ex_st (Nm false 1) 1 (1, 13) =
    Ok [([Nm true 7], (1, 13)); ([Nm false 1; Nm false 2], (1, 11)); ([Nm false 1], (2, 12))] /\
  load_t ex_hm ex_st [TLine (LEntry [Nm false 3] (1, 10)); TBad; TLine (LEntry [Nm false 4] (1, 10))] =
    (ex_st ++ [([Nm false 3], (1, 10))], 101).
Proof. vm_compute. repeat split. Qed.

Example C41_example_reload :
  load ex_hm [] (save ex_st) = ex_st /\
  load ex_hm ex_st (save ex_st) = ex_st /\
  load ex_hm ex_st [LEntry [Nm false 1; Nm false 3] (1, 10); LSkip] = ex_st ++ [([Nm false 3], (1, 10))].
Proof. vm_compute. repeat split. Qed.
