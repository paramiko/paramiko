(* C32 — SFTP check-file returns the correct hashes for the requested ranges and answers.

   `hash` is any function on byte strings (md5, sha1, ... are not paramiko's): hash objects are
   modelled by the bytes fed to update(), their digest being hash of the concatenation.
   `chunk` is the server's read size (65536 in the source): every theorem holds for every
   chunk > 0.  `eff_bs` is the block size after the source's `block_size == 0` / `length == 0`
   substitutions; requests whose effective block size is below 256 are answered with a failure
   status ("Block size too small"). *)
From PV Require Import Bytes ListFacts C32_gen C32 C32_proofs.
Open Scope Z_scope.

(* the answer is the concatenation, over the consecutive blocks
   [start + i*bs, min(start + (i+1)*bs, stop)), i < ceil((stop - start) / bs), of the hash of that
   block of the file, where stop = min(start + length, size), or size when length = 0 *)
Theorem C32_digests :
  forall (hash : list Z -> list Z) chunk file start length bs,
  0 < chunk -> 0 <= start ->
  256 <= eff_bs (Z.of_nat (List.length file)) start length bs ->
  check_file hash chunk file start length bs = Sums (spec_sums hash file start length bs).
Proof. exact digests. Qed.
Print Assumptions C32_digests.

(* same, at the level of the server's reads: one group of reads per digest, each group
   delivering exactly its block's bytes, no read asking for more than `chunk` bytes *)
Theorem C32_reads :
  forall chunk file start length bs,
  0 < chunk -> 0 <= start ->
  let size := Z.of_nat (List.length file) in
  256 <= eff_bs size start length bs ->
  exists T,
    check_trace chunk size start length bs = Digests T /\
    map (ext_data file) T
      = map (fun b => slice file (fst b) (snd b))
            (spec_blocks start (range_stop size start length) (eff_bs size start length bs)) /\
    Forall (Forall (read_ok chunk)) T.
Proof. exact trace_ok. Qed.
Print Assumptions C32_reads.

(* the fuel of the model always suffices: every request is answered (digests or status) *)
Theorem C32_terminates :
  forall (hash : list Z -> list Z) chunk file start length bs,
  0 < chunk -> 0 <= start -> check_file hash chunk file start length bs <> Diverges.
Proof. exact terminates. Qed.
Print Assumptions C32_terminates.

Theorem C32_small_block_rejected :
  forall (hash : list Z -> list Z) chunk file start length bs,
  eff_bs (Z.of_nat (List.length file)) start length bs < 256 ->
  check_file hash chunk file start length bs = Fail SFTP_FAILURE.
Proof. exact small_block_rejected. Qed.
Print Assumptions C32_small_block_rejected.

(* the blocks are consecutive and partition [start, stop) *)
Theorem C32_blocks_consecutive :
  forall start stop bs, 0 < bs -> start < stop ->
  spec_blocks start stop bs = (start, Z.min bs (stop - start)) :: spec_blocks (start + bs) stop bs.
Proof. exact spec_blocks_cons. Qed.
Print Assumptions C32_blocks_consecutive.

Theorem C32_blocks_end : forall start stop bs, stop <= start -> spec_blocks start stop bs = nil.
Proof. exact spec_blocks_nil. Qed.
Print Assumptions C32_blocks_end.

(* one digest per block *)
Theorem C32_answer_length :
  forall (hash : list Z -> list Z) dlen file start length bs,
  (forall x, List.length (hash x) = dlen) ->
  List.length (spec_sums hash file start length bs)
  = (Z.to_nat (nblocks start (range_stop (Z.of_nat (List.length file)) start length)
                       (eff_bs (Z.of_nat (List.length file)) start length bs)) * dlen)%nat.
Proof.
  intros hash dlen file start length bs Hh. unfold spec_sums, spec_blocks.
  now rewrite (flat_map_length_const _ dlen), map_length, seq_length.
Qed.
Print Assumptions C32_answer_length.

(* check(alg) with the defaults hashes the whole file *)
Theorem C32_whole_file :
  forall (hash : list Z -> list Z) chunk file,
  0 < chunk -> 256 <= Z.of_nat (List.length file) ->
  check_file hash chunk file 0 0 0 = Sums (hash file).
Proof.
  intros hash chunk file Hc Hl. rewrite digests by (cbn; lia).
  unfold spec_sums, range_stop, eff_bs, eff_length. cbn [Z.eqb].
  rewrite Z.sub_0_r, Z.add_0_l, Z.min_id.
  rewrite spec_blocks_cons, spec_blocks_nil by lia.
  cbn [flat_map fst snd]. rewrite app_nil_r. do 2 f_equal.
  unfold slice. cbn [Z.to_nat skipn]. rewrite Z.sub_0_r, Z.min_id, Nat2Z.id. apply firstn_all.
Qed.
Print Assumptions C32_whole_file.

(* tie to the source: the minimum block size regenerated from _check_file's AST on this run is the
   256 of the property, and the theorems apply to the read chunk size the source uses *)
Theorem C32_source_constants : MIN_BLOCK = 256 /\ 0 < SOURCE_CHUNK.
Proof. split; reflexivity. Qed.
Print Assumptions C32_source_constants.

Theorem C32_digests_source :
  forall (hash : list Z -> list Z) file start length bs,
  0 <= start ->
  256 <= eff_bs (Z.of_nat (List.length file)) start length bs ->
  check_file hash SOURCE_CHUNK file start length bs = Sums (spec_sums hash file start length bs).
Proof. intros hash file start length bs. now apply digests. Qed.
Print Assumptions C32_digests_source.

(* algorithm selection: the reply names the FIRST entry of the client's preference list that the
   server supports (the client's order wins, unsupported names are skipped); none supported = failure *)
Theorem C32_first_supported :
  forall sup req a, first_supported sup req = Some a ->
  exists l1 l2, req = l1 ++ a :: l2 /\ In a sup /\ (forall x, In x l1 -> ~ In x sup).
Proof.
  intros sup req a (l1 & l2 & -> & Ha%(existsb_eqb_In Z.eqb_eq) & Hn)%find_split. exists l1, l2.
  repeat split; [exact Ha|]. intros x Hx. now apply (existsb_eqb_nIn Z.eqb_eq), Hn.
Qed.
Print Assumptions C32_first_supported.

Theorem C32_none_supported :
  forall sup req, first_supported sup req = None <-> (forall x, In x req -> ~ In x sup).
Proof.
  intros sup req. unfold first_supported. rewrite find_none_iff.
  now setoid_rewrite (existsb_eqb_nIn Z.eqb_eq).
Qed.
Print Assumptions C32_none_supported.

(* what the repair removed: the old inner loop (fixed chunklen, offset += count, no EOF exit)
   never ends once the offset is at or past end of file with bytes still wanted *)
Theorem C32_old_loop_diverges :
  forall size fuel blocklen chunklen count offset reads,
  0 <= count < blocklen -> size <= offset ->
  old_inner size fuel blocklen chunklen count offset reads = None.
Proof.
  induction fuel as [|f IH]; intros blocklen chunklen count offset reads Hc Ho; cbn [old_inner];
    destruct (Z.ltb_spec count blocklen); try lia; [reflexivity|].
  replace (rdlen size offset chunklen) with 0 by (unfold rdlen; lia). apply IH; lia.
Qed.
Print Assumptions C32_old_loop_diverges.

(* ... and, before that, skips file bytes as soon as a block needs a third read
   (here chunk 4, block 12: the third read is at 12 instead of 8) *)
Example C32_old_loop_skips :
  old_inner 100 10 12 4 0 0 nil = Some ([(0, 4); (4, 4); (12, 4)], 12, 24).
Proof. reflexivity. Qed.

(* non-vacuity: 10-byte chunks, a 700-byte file, range [5, 5+600) in blocks of 256, with the
   identity as "hash": the answer is the range itself; and a range past end of file *)
Example C32_example :
  let file := map Z.of_nat (seq 0 700) in
  check_file (fun x => x) 10 file 5 600 256 = Sums (slice file 5 600) /\
  check_file (fun x => x) 10 file 300 0 256 = Sums (slice file 300 400) /\
  check_file (fun x => [Z.of_nat (List.length x)]) 10 file 300 1000 256 = Sums [256; 144] /\
  check_file (fun x => x) 10 file 700 50 256 = Sums [] /\
  check_file (fun x => x) 10 file 0 100 0 = Fail 4.
Proof. vm_compute. repeat split. Qed.
