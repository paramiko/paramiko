(* C03 -- outgoing packets are framed and padded as RFC 4253 section 6 requires.
   `padding`, `length_field`, `aligned_len`, `tag_len` ... are the wrappers of Model/C03.v around the
   definitions of Gen/C03_gen.v, which are translated from paramiko/packet.py (_build_packet,
   send_message, __init__) and paramiko/transport.py (_activate_outbound, _cipher_info, _mac_info)
   on every run: these theorems are re-proved against what the code says now.
   `len` is the payload length: every statement holds for ALL lengths (no bound), in particular
   1 .. 2^32-1. *)
From PV Require Import Bytes C03_gen C03 C03_proofs.
Open Scope Z_scope.

(* between 4 and block size + 3 bytes of padding, for every mode, block size and payload length *)
Theorem C03_padding_range :
  forall md len, 0 < m_bs md -> 4 <= padding md len <= m_bs md + 3.
Proof. exact padding_range. Qed.
Print Assumptions C03_padding_range.

(* the pad byte written by struct.pack and the number of padding bytes appended are that padding,
   and it fits the one-byte field (<= 255) for every block size up to 252 *)
Theorem C03_pad_byte :
  forall md len, 0 < m_bs md <= 252 ->
    4 <= pad_byte md len <= 255 /\ pad_byte md len = padding md len /\ pad_count md len = padding md len.
Proof.
  intros md len H. pose proof (padding_range md len). destruct (pad_byte_count md len) as [-> ->]. lia.
Qed.
Print Assumptions C03_pad_byte.

(* the length field is 1 + payload + padding and counts exactly the bytes of the packet after it *)
Theorem C03_length_field :
  forall md len,
    length_field md len = 1 + len + padding md len /\ packet_len md len = 4 + length_field md len.
Proof. exact length_field_eq. Qed.
Print Assumptions C03_length_field.

(* the portion handed to the cipher is a whole number of blocks; the length field is excluded from it
   exactly for encrypt-then-MAC and AEAD (AES-GCM) *)
Theorem C03_alignment :
  forall md len, 0 < m_bs md ->
    aligned_len md len mod m_bs md = 0 /\
    aligned_len md len = packet_len md len - (if m_etm md || m_aead md then 4 else 0).
Proof.
  intros md len H. split; [now apply alignment|]. unfold aligned_len. now rewrite align_offset_eq.
Qed.
Print Assumptions C03_alignment.

(* tag length by framing mode: nothing in the clear, the engine's tag under AEAD, the truncated HMAC
   otherwise *)
Theorem C03_mac_len :
  forall md digest atag,
    tag_len md digest atag =
    match branch_of md with
    | BClear => 0
    | BAead => atag
    | BEtm | BClassic => if m_aead md then 0 else Z.min digest (m_mac md)
    end.
Proof. exact tag_len_by_branch. Qed.
Print Assumptions C03_mac_len.

(* every suite of the generated tables, as configured by _activate_outbound: all of RFC 4253 section 6 *)
Theorem C03_every_suite :
  forall c m len,
    In c c03_cipher_table -> In m c03_mac_table -> 0 <= len ->
    let md := negotiated c m in
    4 <= padding md len <= 255 /\ padding md len <= ci_bs c + 3 /\
    pad_byte md len = padding md len /\ pad_count md len = padding md len /\
    length_field md len = 1 + len + padding md len /\
    packet_len md len = 4 + length_field md len /\
    aligned_len md len = packet_len md len - (if ci_aead c || ma_etm m then 4 else 0) /\
    aligned_len md len mod ci_bs c = 0 /\ aligned_len md len mod 8 = 0 /\
    ci_bs c <= aligned_len md len /\
    tag_len md (ma_digest m) 16 = (if ci_aead c then 16 else ma_size m) /\
    wire_len md (ma_digest m) 16 len = 4 + length_field md len + (if ci_aead c then 16 else ma_size m).
Proof.
  intros c m len Hc Hm Hlen. cbv zeta. destruct (cipher_in_ok c Hc) as [Hbs H8].
  pose proof (frame_ok (negotiated c m) len Hbs H8 Hlen) as F. rewrite negotiated_excl in F.
  unfold wire_len. rewrite (tag_len_negotiated c m Hm).
  change (m_bs (negotiated c m)) with (ci_bs c) in F. intuition lia.
Qed.
Print Assumptions C03_every_suite.

(* before NEWKEYS (no cipher): block size 8, no tag, whole packet a multiple of 8 and at least 16 bytes *)
Theorem C03_initial :
  forall len, 0 <= len ->
    let md := initial_mode in
    4 <= padding md len <= 255 /\
    length_field md len = 1 + len + padding md len /\
    packet_len md len = 4 + length_field md len /\
    packet_len md len mod 8 = 0 /\ 16 <= packet_len md len /\
    forall digest atag, wire_len md digest atag len = packet_len md len.
Proof.
  intros len Hlen md.
  destruct (frame_ok md len) as (F1 & _ & _ & _ & F5 & F6 & F7 & _ & F9 & _); [easy..|].
  change (aligned_len md len = packet_len md len - 0) in F7. rewrite F7, Z.sub_0_r in F9.
  repeat split; try assumption; try lia.
  - now apply min_packet_16.
  - intros digest atag. apply Z.add_0_r.
Qed.
Print Assumptions C03_initial.

(* minimum packet size 16 whenever the whole packet is aligned (clear and classic framing) *)
Theorem C03_min_packet :
  forall md len, 0 < m_bs md -> m_bs md mod 8 = 0 -> 0 <= len -> m_etm md || m_aead md = false ->
    16 <= packet_len md len.
Proof. exact min_packet_16. Qed.
Print Assumptions C03_min_packet.

(* the generated tables say what the RFCs say about each algorithm NAME: for every suite whose names have a
   reference entry (rfc_macs / rfc_ciphers in Model/C03.v, written from RFC 4253 6.3/6.4, 4344, 5647, 6668 and
   OpenSSH PROTOCOL), the tag written has the RFC length, the block size is the RFC one and the length field
   is excluded exactly for AEAD / -etm names.  C03_example_referenced: every current entry has a reference *)
Theorem C03_rfc_tables :
  forall c m bs aead sz etm,
    In c c03_cipher_table -> In m c03_mac_table ->
    assoc (ci_name c) rfc_ciphers = Some (bs, aead) -> assoc (ma_name m) rfc_macs = Some (sz, etm) ->
    tag_len (negotiated c m) (ma_digest m) 16 = (if aead then 16 else sz) /\
    ci_bs c = bs /\ align_offset (negotiated c m) = (if aead || etm then 4 else 0).
Proof.
  intros c m bs aead sz etm Hc Hm Hac Ham.
  destruct (mac_entry_rfc m sz etm Hm Ham) as [<- <-].
  destruct (cipher_entry_rfc c bs aead Hc Hac) as [<- <-].
  rewrite align_offset_eq, negotiated_excl. auto using tag_len_negotiated.
Qed.
Print Assumptions C03_rfc_tables.

(* what holds instead when the length field is excluded (EtM / AEAD): 4 + at least one block.  With an
   8-byte block cipher (3des-cbc + an -etm MAC) a packet can therefore be 12 bytes, below the 16 of
   RFC 4253 section 6 -- the same framing OpenSSH uses; see C03_example_short_etm *)
Theorem C03_min_packet_etm :
  forall md len, 0 < m_bs md -> 0 <= len -> m_etm md || m_aead md = true ->
    4 + m_bs md <= packet_len md len.
Proof. exact min_packet_excl. Qed.
Print Assumptions C03_min_packet_etm.

Theorem C03_min_packet_suite :
  forall c m len, In c c03_cipher_table -> In m c03_mac_table -> 0 <= len ->
    (if ci_aead c || ma_etm m then 4 + ci_bs c else 16) <= packet_len (negotiated c m) len.
Proof.
  intros c m len Hc Hm Hlen. destruct (cipher_in_ok c Hc) as [Hbs H8].
  pose proof (negotiated_excl c m) as Hx.
  destruct (ci_aead c || ma_etm m);
    [apply (min_packet_excl (negotiated c m)) | apply (min_packet_16 (negotiated c m))]; trivial;
    change (m_bs (negotiated c m)) with (ci_bs c); lia.
Qed.
Print Assumptions C03_min_packet_suite.

(* byte level: what send_message writes.  The cipher, AEAD, HMAC and os.urandom are library primitives;
   their length behaviour is the explicit premise (checked against the real engines by the harness) *)
Theorem C03_wire_layout :
  forall (E : engines) (digest atag : Z),
    (forall x, length (e_cipher E x) = length x) ->
    (forall x a, Z.of_nat (length (e_aead E x a)) = Z.of_nat (length x) + atag) ->
    (forall x, Z.of_nat (length (e_hmac E x)) = digest) ->
    (forall n, 0 <= n -> Z.of_nat (length (e_rnd E n)) = n) ->
    forall md seq payload wire,
      0 < m_bs md -> 0 <= m_mac md ->
      send_wire E md seq payload = Ok wire ->
      let len := Z.of_nat (length payload) in
      Z.of_nat (length wire) = 4 + length_field md len + tag_len md digest atag /\
      Z.of_nat (length wire) = wire_len md digest atag len /\
      (m_enc md = false \/ m_etm md || m_aead md = true ->
         firstn 4 wire = be_encode 4 (length_field md len) /\
         be_decode (firstn 4 wire) = length_field md len) /\
      (m_enc md = false ->
         exists pad, wire = be_encode 4 (length_field md len) ++ [padding md len] ++ payload ++ pad /\
                     Z.of_nat (length pad) = padding md len).
Proof. exact send_wire_layout. Qed.
Print Assumptions C03_wire_layout.

(* send_message as a whole: the message type byte is read first (no packet for an empty message), the
   compressor -- a library primitive, any function -- runs before framing, and every framing statement
   holds for the COMPRESSED data, whatever its length *)
Theorem C03_send_message :
  forall (E : engines) (digest atag : Z),
    (forall x, length (e_cipher E x) = length x) ->
    (forall x a, Z.of_nat (length (e_aead E x a)) = Z.of_nat (length x) + atag) ->
    (forall x, Z.of_nat (length (e_hmac E x)) = digest) ->
    (forall n, 0 <= n -> Z.of_nat (length (e_rnd E n)) = n) ->
    forall (comp : option (list Z -> list Z)) md seq payload wire,
      0 < m_bs md -> 0 <= m_mac md ->
      send_message E comp md seq payload = Ok wire ->
      payload <> [] /\
      let data := match comp with Some f => f payload | None => payload end in
      let len := Z.of_nat (length data) in
      Z.of_nat (length wire) = 4 + length_field md len + tag_len md digest atag /\
      Z.of_nat (length wire) = wire_len md digest atag len /\
      (m_enc md = false \/ m_etm md || m_aead md = true ->
         firstn 4 wire = be_encode 4 (length_field md len) /\
         be_decode (firstn 4 wire) = length_field md len) /\
      (m_enc md = false ->
         exists pad, wire = be_encode 4 (length_field md len) ++ [padding md len] ++ data ++ pad /\
                     Z.of_nat (length pad) = padding md len).
Proof.
  intros E digest atag Hc Ha Hh Hr comp md seq payload wire Hbs Hmac Hs. unfold send_message in Hs.
  destruct payload as [|b payload]; [discriminate|]. split; [discriminate|].
  assert (Hf : framed_payload comp (b :: payload) =
               Ok (match comp with Some f => f (b :: payload) | None => b :: payload end))
    by (destruct comp; reflexivity).
  destruct (_ <=? _); [discriminate|]. rewrite Hf in Hs.
  exact (send_wire_layout E digest atag Hc Ha Hh Hr md seq _ wire Hbs Hmac Hs).
Qed.
Print Assumptions C03_send_message.

Theorem C03_empty_message :
  forall E comp md seq, send_message E comp md seq [] = Raise IndexErr.
Proof. reflexivity. Qed.
Print Assumptions C03_empty_message.

(* non-vacuity: the tables are not empty, a concrete suite is in them, and a concrete packet is built *)
Example C03_example_tables :
  tables_ok = true /\ exists c m, In c c03_cipher_table /\ In m c03_mac_table.
Proof.
  split; [exact tables_ok_true|].
  exists (hd default_cipher c03_cipher_table), (hd default_mac c03_mac_table).
  split; vm_compute; left; reflexivity.
Qed.

Example C03_example_wire :
  exists wire,
    send_wire toy_engines (mk_mode true true false false 16 12) 3 [5; 1; 2; 3; 4; 5; 6] = Ok wire /\
    length wire = (4 + 16 + 12)%nat /\ firstn 5 wire = [0; 0; 0; 16; 82].
Proof. eexists. split; [vm_compute; reflexivity|]. split; reflexivity. Qed.

(* EtM over an 8-byte block cipher: a one-byte message gives a 12-byte packet *)
Example C03_example_short_etm : packet_len (mk_mode true true false false 8 32) 1 = 12.
Proof. reflexivity. Qed.

Example C03_example_compressed :
  exists wire,
    send_message toy_engines (Some (fun x => 120 :: x ++ x)) (mk_mode true false false false 16 12) 3
                 [5; 1; 2] = Ok wire /\ length wire = (16 + 12)%nat.
Proof. eexists. split; [vm_compute; reflexivity|]. reflexivity. Qed.

(* how many entries of the generated tables have a reference definition (all of them today) *)
Example C03_example_referenced :
  referenced (map ma_name c03_mac_table) rfc_macs >= 1 /\ referenced (map ci_name c03_cipher_table) rfc_ciphers >= 1.
Proof. vm_compute. split; discriminate. Qed.
