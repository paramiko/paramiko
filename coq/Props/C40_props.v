(* C40 — SSH config lookup follows OpenSSH first-obtained-value semantics.
   Model: Model/C40.v (config.py with the repairs of fixes/C40-*.diff); the fragment is stated at
   the top of that file (structured configs — the text parser is covered by the correspondence only). *)
From Coq Require Import ZArith List Bool Lia.
From PV Require Import Bytes Glob C40_gen C40 C40_proofs.
Import ListNotations.
Open Scope Z_scope.

(* the glob matcher (fnmatch without character classes) means what `*` and `?` mean *)
Theorem C40_glob_meaning : forall p s, glob p s = true <-> Glob p s.
Proof. exact glob_correct. Qed.
Print Assumptions C40_glob_meaning.

(* a Host block applies iff some pattern matches and no negated pattern matches *)
Theorem C40_host_block_applies :
  forall e target canonical final opts ps body,
    applies e target canonical final opts (Blk (HHost ps) body) = true <->
    (exists p, In p ps /\ glob p target = true) /\
    (forall q, In (33 :: q) ps -> glob q target = false).
Proof. intros. apply pattern_matches_spec. Qed.
Print Assumptions C40_host_block_applies.

(* ... and the matching pattern is a positive one when the name does not itself start with `!` *)
Theorem C40_host_patterns_positive :
  forall ps target,
    hd 0 target <> 33 ->
    (pattern_matches ps target = true <->
     (exists p, In p ps /\ negated p = None /\ glob p target = true) /\
     (forall q, In (33 :: q) ps -> glob q target = false)).
Proof.
  intros ps t Ht. rewrite pattern_matches_spec. split; intros [(p & Hin & G) N]; (split; [|exact N]).
  - exists p. split; [exact Hin|]. split; [|exact G].
    destruct (negated p) as [q|] eqn:E; [|reflexivity]. apply negated_iff in E. subst p.
    apply glob_first_char in G as (s' & ->); [|lia|lia]. cbn in Ht. contradiction.
  - destruct G as [_ G]. eauto.
Qed.
Print Assumptions C40_host_patterns_positive.

(* Host blocks and option-independent Match criteria (all, canonical, originalhost, localuser):
   before token expansion every non-accumulating key has the value of the first block, in file
   order, that applies and sets it; HostName falls back to the name looked up *)
Theorem C40_first_obtained :
  forall e cfg host raw k,
    forallb static_block cfg = true ->
    lookup_raw e cfg host = Some raw ->
    k <> s_identityfile ->
    dget raw k =
    match first_obtained e host cfg k with
    | Some v => Some v
    | None => if zlist_eqb k s_hostname then Some (VStr host) else None
    end.
Proof.
  intros e cfg host raw k Hs H Hk. rewrite (lookup_raw_two_pass e cfg host raw k H Hk).
  rewrite !first_from_static by assumption.
  destruct (first_obtained e host cfg k); [reflexivity|]. now destruct (zlist_eqb k s_hostname).
Qed.
Print Assumptions C40_first_obtained.

(* the same for the final result of lookup(), for every key that has no expansion tokens *)
Theorem C40_first_obtained_final :
  forall e cfg host r k,
    forallb static_block cfg = true ->
    lookup e cfg host = Some r ->
    k <> s_identityfile ->
    allowed_tokens k = [] ->
    dget r k = first_obtained e host cfg k.
Proof.
  intros e cfg host r k Hs H Hk Ha. unfold lookup in H.
  destruct (lookup_raw e cfg host) as [raw|] eqn:L; [|discriminate]. injection H as <-.
  rewrite expand_get_no_tokens by assumption. rewrite (C40_first_obtained e cfg host raw k Hs L Hk).
  rewrite zlist_eqb_neq by (intros ->; now apply hostname_has_tokens).
  now destruct (first_obtained e host cfg k).
Qed.
Print Assumptions C40_first_obtained_final.

(* the same fragment plus `final` (criteria that depend on the pass but not on the options): the
   first block applying in the first pass that sets k, else the HostName default, else the first
   block applying in the second (final) pass that sets k — two plain `find`s over the config *)
Theorem C40_first_obtained_passes :
  forall e cfg host raw k,
    forallb optfree_block cfg = true ->
    lookup_raw e cfg host = Some raw ->
    k <> s_identityfile ->
    dget raw k =
    match first_obtained_in e host false cfg k with
    | Some v => Some v
    | None => if zlist_eqb k s_hostname then Some (VStr host) else first_obtained_in e host true cfg k
    end.
Proof.
  intros e cfg host raw k Hs H Hk. rewrite (lookup_raw_two_pass e cfg host raw k H Hk).
  now rewrite !first_from_optfree by assumption.
Qed.
Print Assumptions C40_first_obtained_passes.

(* ALL criteria except exec (all / canonical / final / host / originalhost / user / localuser, each possibly
   negated, parameters being comma lists of possibly negated patterns), closed form over the config alone.
   Match host / user only look at the HostName / User options, so applicability of a block is a
   function of the config prefix: `sel` walks the blocks carrying just those two values (as set by
   the earlier applying blocks) — no option dictionary appears in the statement.  First pass from
   (None, None); a key obtained there is kept; otherwise HostName defaults to the name looked up;
   otherwise the second (final) pass, started from the first pass's HostName (or the default) and
   User, decides.  This is the case c = false, t = host of C40_relookup below, which is the same
   statement for both kinds of second pass; C40_canonical_plan says
   which one lookup() runs.  Match exec is outside the closed form (the command is tokenised against
   ALL options obtained so far); C40_two_pass_option_states and C40_pass_first_obtained cover it. *)
Theorem C40_two_pass :
  forall e cfg host raw k,
    forallb exec_free_block cfg = true ->
    lookup_raw e cfg host = Some raw ->
    k <> s_identityfile ->
    let sel1 := sel e host false false cfg None None in
    dget raw k =
    match sel1 k with
    | Some v => Some v
    | None =>
        if zlist_eqb k s_hostname then Some (VStr host)
        else sel e host false true cfg
                 (match sel1 s_hostname with Some h => Some h | None => Some (VStr host) end)
                 (sel1 s_user) k
    end.
Proof.
  intros e cfg host raw k Hx ->%lookup_raw_some Hk sel1.
  rewrite relookup_closed by assumption. fold sel1.
  now destruct (zlist_eqb_spec k s_hostname) as [->|Hne].
Qed.
Print Assumptions C40_two_pass.

(* THE FULL STATEMENT (CanonicalizeHostname included).  lookup() = first pass under the name given,
   HostName default, then ONE second pass `relookup e cfg host t c`:
     c = false, t = host   plain final pass;
     c = true              canonical re-lookup under the canonical name t: Host patterns and
                           originalhost are matched against t, `Match canonical` passes, HostName is
                           overwritten with t (a HostName obtained in the first pass is NOT kept), every
                           other option obtained in the first pass is kept, and host / user criteria see
                           HostName = t and the User of the first pass.
   Closed form over the config alone for every key but IdentityFile (exec-free configs): *)
Theorem C40_relookup :
  forall e cfg host t (c : bool) k,
    forallb exec_free_block cfg = true ->
    k <> s_identityfile ->
    let sel1 := sel e host false false cfg None None in
    let h1 := if c then Some (VStr t)
              else match sel1 s_hostname with Some h => Some h | None => Some (VStr host) end in
    dget (relookup e cfg host t c) k =
    if zlist_eqb k s_hostname then h1
    else match sel1 k with
         | Some v => Some v
         | None => sel e t c true cfg h1 (sel1 s_user) k
         end.
Proof. exact relookup_closed. Qed.
Print Assumptions C40_relookup.

Theorem C40_relookup_identityfile :
  forall e cfg host t (c : bool),
    forallb exec_free_block cfg = true ->
    let sel1 := sel e host false false cfg None None in
    let h1 := if c then Some (VStr t)
              else match sel1 s_hostname with Some h => Some h | None => Some (VStr host) end in
    get_list (relookup e cfg host t c) s_identityfile =
    dedup_extend [] (coll e host false false cfg None None ++ coll e t c true cfg h1 (sel1 s_user)).
Proof. exact relookup_idf. Qed.
Print Assumptions C40_relookup_identityfile.

(* which second pass runs, and under which name: the result of lookup() is the expansion (under t) of
   exactly one relookup *)
Theorem C40_lookup_full_cases :
  forall e cfg host d,
    lookup_full e cfg host = Out d ->
    (plan_of e cfg host = PlanPlain /\ d = expand e host (relookup e cfg host host false)) \/
    (exists t, plan_of e cfg host = PlanCanon t /\ d = expand e t (relookup e cfg host t true)).
Proof.
  intros e cfg host d. unfold lookup_full. destruct (in_fragment2 cfg); [|discriminate].
  destruct (plan_of e cfg host) as [|t|x|]; try discriminate; intros [= <-]; eauto.
Qed.
Print Assumptions C40_lookup_full_cases.

(* the canonical re-lookup happens only when the FIRST pass obtained CanonicalizeHostname yes/always and
   the name has at most CanonicalizeMaxDots (default 1) dots; its name is host.dom for the first of the
   first pass's CanonicalDomains under which the name resolves, or the name itself when none does
   (fallback); the decision never looks at second-pass options *)
Theorem C40_canonical_plan :
  forall e cfg host t,
    plan_of e cfg host = PlanCanon t ->
    let o1 := first_pass e cfg host in
    canon_on o1 = true /\
    (exists md, maxdots o1 = Some md /\ count_dots host <= md) /\
    exists ds, dget o1 s_canonicaldomains = Some (VStr ds) /\
      ((exists dom, In dom (split_ws ds) /\ t = host ++ 46 :: dom /\ e_resolves e t = true) \/
       (t = host /\ forall dom, In dom (split_ws ds) -> e_resolves e (host ++ 46 :: dom) = false)).
Proof.
  intros e cfg host t H. cbv zeta. unfold plan_of in H. cbv zeta in H. set (o1 := first_pass e cfg host) in *.
  destruct (maxdots o1) as [md|]; [|discriminate].
  destruct (canon_on o1 && (count_dots host <=? md)) eqn:C; [|discriminate].
  apply andb_true_iff in C as [C1 C2]. apply Z.leb_le in C2.
  split; [exact C1|]. split; [eauto|].
  destruct (dget o1 s_canonicaldomains) as [[| ds | l]|]; try discriminate.
  exists ds. split; [reflexivity|].
  unfold canonicalize in H.
  destruct (find (fun d => e_resolves e (host ++ 46 :: d)) (split_ws ds)) as [dom|] eqn:F.
  - injection H as <-. apply find_some in F as [Hin Hr]. left. exists dom. auto.
  - right. split; [|exact (find_none _ _ F)].
    destruct (dget o1 s_canonicalizefallbacklocal) as [[| v | l]|]; try discriminate.
    + destruct (zlist_eqb v s_yes); [|discriminate]. now injection H as <-.
    + now injection H as <-.
Qed.
Print Assumptions C40_canonical_plan.

Theorem C40_plain_plan :
  forall e cfg host,
    plan_of e cfg host = PlanPlain ->
    let o1 := first_pass e cfg host in
    exists md, maxdots o1 = Some md /\ (canon_on o1 = false \/ md < count_dots host).
Proof.
  intros e cfg host H. cbv zeta. unfold plan_of in H. cbv zeta in H. set (o1 := first_pass e cfg host) in *.
  destruct (maxdots o1) as [md|]; [|discriminate]. exists md. split; [reflexivity|].
  destruct (canon_on o1); [|auto]. cbn [andb] in H.
  destruct (count_dots host <=? md) eqn:C.
  - destruct (dget o1 s_canonicaldomains) as [[| ds | l]|]; try discriminate.
    destruct (canonicalize e host o1 (split_ws ds)); discriminate.
  - right. apply Z.leb_gt in C. exact C.
Qed.
Print Assumptions C40_plain_plan.

(* lookup_full extends the canonicalisation-free lookup the theorems above speak about *)
Theorem C40_lookup_full_extends :
  forall e cfg host d, lookup e cfg host = Some d -> lookup_full e cfg host = Out d.
Proof.
  intros e cfg host d. unfold lookup, lookup_raw. destruct (in_fragment cfg) eqn:Hf; [|discriminate].
  intros [= <-]. unfold lookup_full. rewrite (in_fragment_2 cfg Hf).
  (* the first pass obtains neither CanonicalizeHostname nor CanonicalizeMaxDots *)
  assert (P : plan_of e cfg host = PlanPlain).
  { unfold plan_of, maxdots, canon_on.
    rewrite (first_pass_excluded e cfg host s_canonicalizemaxdots Hf eq_refl).
    now rewrite (first_pass_excluded e cfg host s_canonicalizehostname Hf eq_refl). }
  now rewrite P.
Qed.
Print Assumptions C40_lookup_full_extends.

(* the same fact for ANY criteria (exec included), through the model's intermediate option
   dictionaries: first_from threads the evolving options *)
Theorem C40_two_pass_option_states :
  forall e cfg host raw k,
    lookup_raw e cfg host = Some raw ->
    k <> s_identityfile ->
    dget raw k =
    match first_from e host false false cfg [] k with
    | Some v => Some v
    | None => if zlist_eqb k s_hostname then Some (VStr host)
              else first_from e host false true cfg (first_pass e cfg host) k
    end.
Proof. exact lookup_raw_two_pass. Qed.
Print Assumptions C40_two_pass_option_states.

(* one pass, any criteria: already obtained keys are kept, new ones come from the first block that
   applies (with the options so far) and sets them *)
Theorem C40_pass_first_obtained :
  forall e target canonical final cfg opts k,
    k <> s_identityfile ->
    dget (pass e target canonical final cfg opts) k =
    match dget opts k with
    | Some v => Some v
    | None => first_from e target canonical final cfg opts k
    end.
Proof. exact pass_get. Qed.
Print Assumptions C40_pass_first_obtained.

(* IdentityFile: the values of the applying blocks (first pass, then second pass) accumulate in
   order, each value once *)
Theorem C40_identityfile_no_dup :
  forall e cfg host raw,
    lookup_raw e cfg host = Some raw ->
    let all := collected e host false false cfg [] ++
               collected e host false true cfg (first_pass e cfg host) in
    NoDup (get_list raw s_identityfile) /\
    (forall x, In x (get_list raw s_identityfile) <-> In x all) /\
    Subseq (get_list raw s_identityfile) all.
Proof.
  intros e cfg host raw H all. rewrite (lookup_raw_idf e cfg host raw H). fold all. split; [|split].
  - apply dedup_extend_nodup. constructor.
  - intros x. rewrite dedup_extend_in. cbn. tauto.
  - destruct (dedup_extend_subseq all []) as (sfx & E & S). now rewrite E.
Qed.
Print Assumptions C40_identityfile_no_dup.

(* closed form: the accumulated list is the keep-first de-duplication of the applying blocks' values,
   first pass then final pass, applicability decided as in C40_two_pass *)
Theorem C40_identityfile_accumulation :
  forall e cfg host raw,
    forallb exec_free_block cfg = true ->
    lookup_raw e cfg host = Some raw ->
    let sel1 := sel e host false false cfg None None in
    get_list raw s_identityfile =
    dedup_extend [] (coll e host false false cfg None None ++
                     coll e host false true cfg
                          (match sel1 s_hostname with Some h => Some h | None => Some (VStr host) end)
                          (sel1 s_user)).
Proof.
  intros e cfg host raw Hx ->%lookup_raw_some sel1.
  exact (relookup_idf e cfg host host false Hx).
Qed.
Print Assumptions C40_identityfile_accumulation.

(* HostName defaults to the looked-up name *)
Theorem C40_hostname_default :
  forall e cfg host r,
    lookup e cfg host = Some r ->
    first_from e host false false cfg [] s_hostname = None ->
    ~ In 37 host ->
    dget r s_hostname = Some (VStr host).
Proof.
  intros e cfg host r. unfold lookup. destruct (lookup_raw e cfg host) as [raw|] eqn:L; [|discriminate].
  intros [= <-] Hn Hp.
  pose proof (lookup_raw_two_pass e cfg host raw s_hostname L ltac:(discriminate)) as G.
  rewrite Hn in G. cbn in G.
  rewrite expand_get_hostname, G. cbn [tok_value]. rewrite tokenize_hostname. now rewrite replace2_absent.
Qed.
Print Assumptions C40_hostname_default.

(* tokens: a value made of ordinary characters, %x tokens and ~ is expanded segment by segment —
   allowed tokens (table regenerated from config.py) by their text, everything else unchanged —
   whenever the substituted texts are themselves free of % and ~ *)
Theorem C40_tokens :
  forall e cfg target key segs,
    forallb seg_wf segs = true ->
    texts_clean e cfg target key = true ->
    tokenize e cfg target key (render segs) = flat_map (expand_seg e cfg target key) segs.
Proof.
  intros e cfg t key l Hl Hc. unfold tokenize.
  pose proof (replacements_shapes e cfg t key Hc) as Hs.
  rewrite fold_apply_render by assumption.
  induction l as [|s l IH].
  { change (@nil seg) with (map Ch []) at 1. now rewrite fold_subst_chs. }
  cbn in Hl. apply andb_true_iff in Hl as [_ Hl].
  change (s :: l) with ([s] ++ l). rewrite fold_subst_app, render_app, (IH Hl). cbn [flat_map app]. f_equal.
  destruct s as [x|d|]; cbn [expand_seg].
  - change [Ch x] with (map Ch [x]). now rewrite fold_subst_chs.
  - rewrite fold_subst_seg, rep_for_replacements by discriminate. cbn [render_seg].
    destruct (mem_str [37; d] (allowed_tokens key)); [apply render_chs|reflexivity].
  - rewrite fold_subst_seg, rep_for_replacements by discriminate. cbn [render_seg].
    destruct (mem_str [126] (allowed_tokens key)); [apply render_chs|reflexivity].
Qed.
Print Assumptions C40_tokens.

(* options without tokens come out of the expansion unchanged; HostName is expanded against the
   name looked up and, being expanded first, is what %h means for every other option *)
Theorem C40_tokens_untouched :
  forall e target d k, allowed_tokens k = [] -> dget (expand e target d) k = dget d k.
Proof. exact expand_get_no_tokens. Qed.
Print Assumptions C40_tokens_untouched.

Theorem C40_tokens_hostname :
  forall e target d,
    dget (expand e target d) s_hostname =
    match dget d s_hostname with
    | Some v => Some (tok_value e d target s_hostname v)
    | None => None
    end.
Proof. exact expand_get_hostname. Qed.
Print Assumptions C40_tokens_hostname.

(* get_hostnames reports exactly the Host patterns, for any config (Match blocks included), and
   always the implicit `*` block *)
Theorem C40_get_hostnames :
  forall cfg p,
    In p (get_hostnames cfg) <-> exists b ps, In b cfg /\ b_hdr b = HHost ps /\ In p ps.
Proof.
  intros cfg p. unfold get_hostnames. rewrite in_flat_map. split.
  - intros (b & Hb & Hp). unfold block_hosts in Hp. destruct (b_hdr b) as [ps|cs] eqn:E; [eauto|contradiction].
  - intros (b & ps & Hb & E & Hp). exists b. split; [exact Hb|]. unfold block_hosts. now rewrite E.
Qed.
Print Assumptions C40_get_hostnames.

Theorem C40_get_hostnames_star :
  forall global blocks, In [42] (get_hostnames (parsed global blocks)).
Proof. intros. now left. Qed.
Print Assumptions C40_get_hostnames_star.

(* The code before the repairs (fixes/C40-*.diff) violates the property. *)

Theorem C40_get_hostnames_v0_refuted :
  exists cfg, (exists b ps p, In b cfg /\ b_hdr b = HHost ps /\ In p ps) /\
              get_hostnames_v0 cfg = Raise KeyErr.
Proof.
  exists [Blk (HHost [[97]]) []; Blk (HMatch [Crit CAll false []]) []]. split; [|reflexivity].
  exists (Blk (HHost [[97]]) []), [[97]], [97]. cbn. auto.
Qed.
Print Assumptions C40_get_hostnames_v0_refuted.

Theorem C40_identityfile_no_dup_v0_refuted :
  exists e cfg host x, get_list (pass_v0 e host false false cfg []) s_identityfile = [x; x].
Proof.
  exists ex_env, [Blk (HHost [[42]]) [(s_identityfile, [107]); (s_identityfile, [107])]], [97], [107].
  vm_compute. reflexivity.
Qed.
Print Assumptions C40_identityfile_no_dup_v0_refuted.

(* IdentityFile /%h set before HostName %h.x, looked up as `a`: %h is left in the result *)
Theorem C40_tokens_v0_refuted :
  exists e host d,
    d = [(s_identityfile, VList [[47;37;104]]); (s_hostname, VStr [37;104;46;120])] /\
    dget (expand_v0 e host d) s_identityfile = Some (VList [[47;37;104;46;120]]) /\
    dget (expand e host d) s_identityfile = Some (VList [[47;97;46;120]]).
Proof.
  exists ex_env, [97], [(s_identityfile, VList [[47;37;104]]); (s_hostname, VStr [37;104;46;120])].
  split; [reflexivity|]. split; vm_compute; reflexivity.
Qed.
Print Assumptions C40_tokens_v0_refuted.

(* Host web* !web2 / User u1 ; Match originalhost web2 / User u2 ; Host * / User u3, IdentityFile k, k *)
Definition ex_cfg : list block :=
  parsed []
    [Blk (HHost [[119;101;98;42]; [33;119;101;98;50]]) [(s_user, [117;49])];
     Blk (HMatch [Crit COrigHost false [119;101;98;50]]) [(s_user, [117;50])];
     Blk (HHost [[42]]) [(s_user, [117;51]); (s_identityfile, [107]); (s_identityfile, [107])]].

Example C40_example_static :
  forallb static_block ex_cfg = true /\
  (exists raw, lookup_raw ex_env ex_cfg [119;101;98;49] = Some raw /\
               dget raw s_user = Some (VStr [117;49]) /\ get_list raw s_identityfile = [[107]]) /\
  (exists r, lookup ex_env ex_cfg [119;101;98;50] = Some r /\ dget r s_user = Some (VStr [117;50]) /\
             dget r s_hostname = Some (VStr [119;101;98;50])) /\
  first_from ex_env [119;101;98;50] false false ex_cfg [] s_hostname = None /\
  allowed_tokens s_user = [].
Proof.
  split; [reflexivity|]. split; [eexists; split; [vm_compute; reflexivity|split; reflexivity]|].
  split; [eexists; split; [vm_compute; reflexivity|split; reflexivity]|]. split; reflexivity.
Qed.

(* Host a / HostName b ; Match host b / User u ; Match final user u / Port 5 ; Match host a / Port 6 :
   looking up `a`: the Match host sees HostName b, the final pass sees User u *)
Definition ex_cfg2 : list block :=
  parsed []
    [Blk (HHost [[97]]) [(s_hostname, [98])];
     Blk (HMatch [Crit CHost false [98]]) [(s_user, [117])];
     Blk (HMatch [Crit CFinal false []; Crit CUser false [117]]) [(s_port, [53])];
     Blk (HMatch [Crit CHost false [97]]) [(s_port, [54])]].

Example C40_example_two_pass :
  exists raw, lookup_raw ex_env ex_cfg2 [97] = Some raw /\
              dget raw s_user = Some (VStr [117]) /\ dget raw s_port = Some (VStr [53]) /\
              sel ex_env [97] false false ex_cfg2 None None s_port = None /\
              forallb optfree_block ex_cfg2 = false.
Proof. eexists. split; [vm_compute; reflexivity|]. repeat split; reflexivity. Qed.

(* CanonicalizeHostname yes / CanonicalDomains x.y lan ; Host a / HostName b ; Match canonical host a.lan / User c ;
   `a.lan` resolves: looking up `a` re-looks-up as a.lan, HostName b of the first pass is overwritten *)
Definition ex_env3 : env :=
  Env [97;108] [98] [98] [47;104] toyhash (fun n => zlist_eqb n [97;46;108;97;110]) exec_stub.
Definition ex_cfg3 : list block :=
  parsed [(s_canonicalizehostname, s_yes); (s_canonicaldomains, [120;46;121;32;108;97;110])]
    [Blk (HHost [[97]]) [(s_hostname, [98])];
     Blk (HMatch [Crit CCanonical false []; Crit CHost false [97;46;108;97;110]]) [(s_user, [99])]].

Example C40_example_canonical :
  plan_of ex_env3 ex_cfg3 [97] = PlanCanon [97;46;108;97;110] /\
  forallb exec_free_block ex_cfg3 = true /\
  exists d, lookup_full ex_env3 ex_cfg3 [97] = Out d /\
            dget d s_hostname = Some (VStr [97;46;108;97;110]) /\ dget d s_user = Some (VStr [99]).
Proof.
  split; [vm_compute; reflexivity|]. split; [reflexivity|].
  eexists. split; [vm_compute; reflexivity|]. split; reflexivity.
Qed.

(* ~/.ssh/%h-%p under identityfile (where %p is not allowed) *)
Example C40_example_tokens :
  let segs := [Tilde; Ch 47; Tok 104; Ch 45; Tok 112] in
  forallb seg_wf segs = true /\
  texts_clean ex_env [(s_hostname, VStr [120;46;121])] [97] s_identityfile = true /\
  tokenize ex_env [(s_hostname, VStr [120;46;121])] [97] s_identityfile (render segs) =
  [47;104;47;120;46;121;45;37;112].
Proof. cbv zeta. split; [reflexivity|]. split; vm_compute; reflexivity. Qed.
