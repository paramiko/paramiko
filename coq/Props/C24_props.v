(* C24 -- a channel's pollable descriptor is readable exactly when recv would not block.

   v1 (model of the repaired pipe.py / BufferedPipe.feed, atomic actions = critical sections):
   positive theorems over all interleavings of any number of operations.
   v0 (the code before the repair, one action per source line): refutation witnesses. *)
From PV Require Import Bytes C24 C24_gen C24_proofs.
Open Scope Z_scope.

(* From the state Channel.fileno() leaves (any buffer contents d1 d2, EOF/closed or not),
   after ANY sequence of atomic actions of any threads (feeds, emptying reads, empty(),
   EOF / remote close, each split at its lock boundaries), whenever no call is in progress:
   select() reports the descriptor readable  <->  stdout holds data \/ stderr holds data \/
   the channel reached EOF or closed. *)
Theorem C24_quiescent_iff :
  forall (d1 d2 closed : bool) (s : st),
    reachable (fileno_state d1 d2 closed) s -> quiescent s = true ->
    (readable s = true <-> ne1 s = true \/ ne2 s = true \/ ch s = true).
Proof. intros d1 d2 closed s. apply quiescent_iff_inv, fileno_inv. Qed.
Print Assumptions C24_quiescent_iff.

(* the lock discipline and event-call sites C24_quiescent_iff rests on are those of the current source:
   gen_shape is produced by the fail-closed AST translator gen/c24.py on every run *)
Theorem C24_source_shape : gen_shape = assumed_shape.
Proof. reflexivity. Qed.
Print Assumptions C24_source_shape.

(* the inductive core: the invariant is preserved by every atomic action from every state *)
Theorem C24_invariant_step :
  forall s l s', inv_b s = true -> step s l = Some s' -> inv_b s' = true.
Proof. exact inv_step. Qed.
Print Assumptions C24_invariant_step.

(* the same equivalence from any start state satisfying the invariant *)
Theorem C24_quiescent_iff_from_invariant :
  forall s0 s, inv_b s0 = true -> reachable s0 s -> quiescent s = true ->
    (readable s = true <-> ne1 s = true \/ ne2 s = true \/ ch s = true).
Proof. exact quiescent_iff_inv. Qed.
Print Assumptions C24_quiescent_iff_from_invariant.

(* no reachable deadlock inside the event maintenance: while a call is in progress some
   action is enabled ... *)
Theorem C24_progress :
  forall d1 d2 closed s,
    reachable (fileno_state d1 d2 closed) s -> quiescent s = false -> exists l s', step s l = Some s'.
Proof. exact progress. Qed.
Print Assumptions C24_progress.

(* ... in particular the os.read in PosixPipe.clear never finds the pipe empty *)
Theorem C24_clear_never_blocks :
  forall d1 d2 closed s o,
    reachable (fileno_state d1 d2 closed) s -> fl s = Some (PClear, o) -> pipe_clear s <> None.
Proof. intros d1 d2 closed s o R _. apply inv_clear_never_blocks, (fileno_reachable_inv _ _ _ _ R). Qed.
Print Assumptions C24_clear_never_blocks.

(* v0, the unsynchronised code: the equivalence fails at a quiescent state.  Witness: after
   p2.set(), thread 0 runs p2.clear() and thread 1 runs p1.set() under the 13-entry line
   schedule 0 0 0 1 1 1 1 1 1 0 0 0 0 : both calls complete, stdout's flag is set, the
   descriptor is not readable (reproduced on the real code by the line-level scheduler). *)
Theorem C24_quiescent_iff_refuted :
  ~ (forall a b f calls sched s pcs,
       exec0 (start0 a b f) (map Start calls) sched = Some (s, pcs) ->
       forallb is_done pcs = true -> readable0 s = wanted0 s).
Proof.
  intros H. destruct v0_race_set_clear as (s & pcs & E & D & R & W).
  specialize (H false true false [3; 0] _ s pcs E D). rewrite R, W in H. discriminate.
Qed.
Print Assumptions C24_quiescent_iff_refuted.

Theorem C24_v0_race_set_clear :
  exists s pcs,
    exec0 (start0 false true false) [Start 3; Start 0] [0;0;0;1;1;1;1;1;1;0;0;0;0]%nat = Some (s, pcs) /\
    forallb is_done pcs = true /\ readable0 s = false /\ wanted0 s = true.
Proof. exact v0_race_set_clear. Qed.
Print Assumptions C24_v0_race_set_clear.

(* v0: clear overlapping set_forever leaves an EOF/closed channel not readable *)
Theorem C24_v0_race_clear_forever :
  exists s pcs,
    exec0 (start0 true false false) [Start 1; Start 4] [0;0;0;0;0;1;1;1;1;1;0;0]%nat = Some (s, pcs) /\
    forallb is_done pcs = true /\ readable0 s = false /\ fvr s = true.
Proof. do 2 eexists. vm_compute. repeat split; reflexivity. Qed.
Print Assumptions C24_v0_race_clear_forever.

(* v0: two overlapping clears: the second os.read blocks for ever (its caller holds the
   stderr buffer's lock, so the transport thread stalls on the next stderr feed) *)
Theorem C24_v0_double_clear_blocks :
  exists s pcs p,
    exec0 (start0 true true false) [Start 1; Start 3] [0;0;1;1;0;0;0;1;1;1;0;0]%nat = Some (s, pcs) /\
    nth_error pcs 1%nat = Some p /\ stuck0 s p = true /\ nth_error pcs 0%nat = Some Done.
Proof. do 3 eexists. vm_compute. repeat split; reflexivity. Qed.
Print Assumptions C24_v0_double_clear_blocks.

(* v0 is correct when calls do not overlap: each call run alone from a consistent state ends
   in a consistent state with readable = (p1 set or p2 set or forever) *)
Theorem C24_v0_sequential_ok :
  forall a b c d (call : Z),
    let s := mk0 a b c d (if c then 1 else 0)%nat in
    consistent0 s = true ->
    exists s', run_alone 10 s (Start call) = Some s' /\ consistent0 s' = true /\ readable0 s' = wanted0 s'.
Proof.
  intros a b c d call s H.
  change (run_alone 10 s (Start call)) with (run_alone 9 s (entry0 call)).
  exact (entry_alone s _ H (entry0_in call)).
Qed.
Print Assumptions C24_v0_sequential_ok.

(* non-vacuity: a concrete interleaving reaching a non-trivial quiescent state -- stderr feed
   and stdout read overlap (the feed's OrPipe half runs, the read's then waits for the lock),
   then EOF; and a state with a call in flight *)
Example C24_example_reachable :
  exists s,
    run_labels (fileno_state true false false)
      [ReadAll false; Finish; Feed true true; ChanBegin; Finish; Feed false true; ChanClose; ChanClose;
       ChanForever; ReadAll false; ReadAll true] = Some s /\
    quiescent s = true /\ readable s = true /\ ne1 s = false /\ ne2 s = false /\ ch s = true.
Proof. eexists. vm_compute. repeat split; reflexivity. Qed.

Example C24_example_in_flight :
  exists s, run_labels (fileno_state true false false) [ReadAll false] = Some s /\
            quiescent s = false /\ fl s = Some (PClear, false) /\ inv_b s = true.
Proof. eexists. vm_compute. repeat split; reflexivity. Qed.
