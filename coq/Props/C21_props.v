(* C21 — channel byte streams arrive intact, in order and on the right stream.

   Reading guide.  A history [ops] is an ARBITRARY list of atomic operations: incoming channel
   messages [Msg cid m] (the peer's wire stream, [msgs_of ops], in the order C01 delivers it,
   for any number of channels in any interleaving) mixed in any way with the user threads'
   recv / recv_stderr / set_combine_stderr / exit-status calls on any channels.  [OUT c s ops] is
   everything the user read from c's stdout during the history followed by what is still
   buffered there; [ERR] likewise for stderr.  [delivered k l] is the sub-stream of l that the
   run() loop hands to a channel (ids registered at that moment, loop not stopped); under
   [well_addressed] it is l itself. *)
From PV Require Import Bytes C21_gen C21 C21_proofs.
Open Scope Z_scope.

(* stdout of channel c = the DATA payloads addressed to c, concatenated in wire order: for any
   number of channels, any interleaving of their messages, any chunking, any read sizes *)
Theorem C21_stdout :
  forall (k : ctl) (ch : Z -> chan) (ops : list op) (c : Z),
    well_addressed k (msgs_of ops) -> c_comb (ch c) = false -> never_combined c ops ->
    OUT c (k, ch) ops = c_out (ch c) ++ data_of c (msgs_of ops).
Proof. intros k ch ops c W C N. rewrite <- (delivered_all k _ W). now apply plain_main. Qed.
Print Assumptions C21_stdout.

(* stderr of channel c = the EXTENDED_DATA code 1 payloads addressed to c, in wire order *)
Theorem C21_stderr :
  forall (k : ctl) (ch : Z -> chan) (ops : list op) (c : Z),
    well_addressed k (msgs_of ops) -> c_comb (ch c) = false -> never_combined c ops ->
    ERR c (k, ch) ops = c_err (ch c) ++ ext_of c (msgs_of ops).
Proof. intros k ch ops c W C N. rewrite <- (delivered_all k _ W). now apply plain_main. Qed.
Print Assumptions C21_stderr.

(* the same without any assumption on the stream (closes, dead ids, unknown ids that stop the
   loop): each stream is the projection of what was delivered *)
Theorem C21_stdout_general :
  forall (k : ctl) (ch : Z -> chan) (ops : list op) (c : Z),
    c_comb (ch c) = false -> never_combined c ops ->
    OUT c (k, ch) ops = c_out (ch c) ++ data_of c (delivered k (msgs_of ops)).
Proof. intros k ch ops c C N. now apply plain_main. Qed.
Print Assumptions C21_stdout_general.

Theorem C21_stderr_general :
  forall (k : ctl) (ch : Z -> chan) (ops : list op) (c : Z),
    c_comb (ch c) = false -> never_combined c ops ->
    ERR c (k, ch) ops = c_err (ch c) ++ ext_of c (delivered k (msgs_of ops)).
Proof. intros k ch ops c C N. now apply plain_main. Qed.
Print Assumptions C21_stderr_general.

(* combining, any number of switches on and off, any reads: no byte is lost or duplicated and
   each stream keeps its own order — the stdout stream is an order-preserving merge of the DATA
   bytes with a part [eo] of the stderr bytes, and the stderr bytes are an order-preserving
   merge of [eo] with what went to / stayed on the stderr side *)
Theorem C21_combine_merge :
  forall (k : ctl) (ch : Z -> chan) (ops : list op) (c : Z),
    (c_comb (ch c) = true -> c_err (ch c) = []) ->
    exists zo eo,
      OUT c (k, ch) ops = c_out (ch c) ++ zo /\
      Merge (data_of c (delivered k (msgs_of ops))) eo zo /\
      Merge eo (ERR c (k, ch) ops) (c_err (ch c) ++ ext_of c (delivered k (msgs_of ops))).
Proof. intros k ch ops c. apply merge_main. Qed.
Print Assumptions C21_combine_merge.

(* combining on at the end and stderr never read separately: ALL stderr data — what was
   buffered before the switch ([c_err (ch c)] and whatever arrived before the switch) and what
   came later — is in the stdout stream, merged with the DATA bytes, each in its own order;
   nothing is left on the stderr side *)
Theorem C21_combine :
  forall (k : ctl) (ch : Z -> chan) (ops : list op) (c : Z),
    (c_comb (ch c) = true -> c_err (ch c) = []) ->
    c_comb (final (k, ch) ops c) = true -> no_recv_err c ops ->
    c_err (final (k, ch) ops c) = [] /\
    exists zo,
      OUT c (k, ch) ops = c_out (ch c) ++ zo /\
      Merge (data_of c (delivered k (msgs_of ops)))
            (c_err (ch c) ++ ext_of c (delivered k (msgs_of ops))) zo.
Proof.
  intros k ch ops c I F N.
  assert (Hf : c_err (final (k, ch) ops c) = []) by (apply (inv_main ops k ch c I); exact F).
  split; [exact Hf|].
  destruct (merge_main ops k ch c I) as (zo & eo & H1 & H2 & H3).
  unfold ERR in H3. rewrite reads_err_none, Hf in H3 by exact N. cbn in H3.
  apply Merge_inv_nil_r in H3. subst eo. exists zo. auto.
Qed.
Print Assumptions C21_combine.

(* while combining is on, nothing is ever in the stderr buffer (recv_stderr yields no data) *)
Theorem C21_combine_invariant :
  forall (k : ctl) (ch : Z -> chan) (ops : list op) (c : Z),
    (c_comb (ch c) = true -> c_err (ch c) = []) ->
    c_comb (final (k, ch) ops c) = true -> c_err (final (k, ch) ops c) = [].
Proof. intros k ch ops c I. exact (inv_main ops k ch c I). Qed.
Print Assumptions C21_combine_invariant.

(* the switch itself: buffered stderr data is appended to stdout, other channels untouched *)
Theorem C21_combine_switch :
  forall (k : ctl) (ch : Z -> chan) (c : Z),
    c_comb (ch c) = false ->
    let ch1 := snd (fst (step (k, ch) (SetCombine c true))) c in
    c_out ch1 = c_out (ch c) ++ c_err (ch c) /\ c_err ch1 = [] /\ c_comb ch1 = true /\
    forall c', c' <> c -> snd (fst (step (k, ch) (SetCombine c true))) c' = ch c'.
Proof.
  intros k ch c C. cbn [step]. unfold set_combine. rewrite C. cbn [andb negb fst snd].
  unfold upd. rewrite Z.eqb_refl. cbn. repeat split; auto.
  intros c' Hne. apply Z.eqb_neq in Hne. rewrite Hne. reflexivity.
Qed.
Print Assumptions C21_combine_switch.

(* the reported exit status is the one sent (the last one, should the peer send several) *)
Theorem C21_exit_status :
  forall (k : ctl) (ch : Z -> chan) (ops : list op) (c : Z),
    statuses c (delivered k (msgs_of ops)) <> [] ->
    exit_ready (final (k, ch) ops c) = true /\
    c_exit (final (k, ch) ops c) = last (statuses c (delivered k (msgs_of ops))) (c_exit (ch c)).
Proof. exact exit_status. Qed.
Print Assumptions C21_exit_status.

Theorem C21_exit_status_one :
  forall (k : ctl) (ch : Z -> chan) (ops : list op) (c n : Z),
    well_addressed k (msgs_of ops) -> statuses c (msgs_of ops) = [n] ->
    exit_ready (final (k, ch) ops c) = true /\ c_exit (final (k, ch) ops c) = n.
Proof.
  intros k ch ops c n W H. rewrite <- (delivered_all k _ W) in H. now apply exit_status_one.
Qed.
Print Assumptions C21_exit_status_one.

(* lifetime: the application's own close() does NOT unregister the channel (only the peer's CLOSE
   does), so an exit status that crosses the local close on the wire is still the one reported *)
Theorem C21_exit_status_after_local_close :
  forall (k : ctl) (ch : Z -> chan) (c n : Z),
    k_active k = true -> memz c (k_reg k) = true ->
    exit_ready (final (k, ch) [LocalClose c; Msg c (ExitStatus n)] c) = true /\
    c_exit (final (k, ch) [LocalClose c; Msg c (ExitStatus n)] c) = n.
Proof.
  intros k ch c n Ha Hr. apply exit_status_one.
  cbn [msgs_of delivered]. unfold dispatch. rewrite Ha, Hr. cbn [negb is_close].
  rewrite statuses_cons, Z.eqb_refl. reflexivity.
Qed.
Print Assumptions C21_exit_status_after_local_close.

(* a message for an id that is not open changes no channel and produces nothing; if the id
   was never seen the loop stops *)
Theorem C21_unknown_channel :
  forall (k : ctl) (ch : Z -> chan) (cid : Z) (m : msg),
    memz cid (k_reg k) = false ->
    (forall c, snd (fst (step (k, ch) (Msg cid m))) c = ch c) /\
    snd (step (k, ch) (Msg cid m)) = [] /\
    (memz cid (k_seen k) = false -> k_active (fst (fst (step (k, ch) (Msg cid m)))) = false).
Proof.
  intros k ch cid m Hreg. cbn [step]. unfold dispatch. rewrite Hreg.
  destruct (k_active k) eqn:Ha; cbn [negb fst snd]; [|now repeat split].
  destruct (memz cid (k_seen k)); cbn [fst snd]; repeat split; auto; discriminate.
Qed.
Print Assumptions C21_unknown_channel.

(* ... and over a whole stream: nothing addressed to an id that is not open is ever delivered *)
Theorem C21_unknown_channel_stream :
  forall (k : ctl) (l : list (Z * msg)) (cid : Z),
    memz cid (k_reg k) = false ->
    (forall m, ~ In (cid, m) (delivered k l)) /\
    data_of cid (delivered k l) = [] /\ ext_of cid (delivered k l) = [] /\
    statuses cid (delivered k l) = [].
Proof.
  intros k l cid H. split; [|apply projections_unregistered; exact H].
  intros m Hin. apply delivered_registered in Hin. congruence.
Qed.
Print Assumptions C21_unknown_channel_stream.

Theorem C21_stopped_loop_delivers_nothing :
  forall (k : ctl) (l : list (Z * msg)), k_active k = false -> delivered k l = [].
Proof. exact delivered_inactive. Qed.
Print Assumptions C21_stopped_loop_delivers_nothing.

(* sender side: whatever sizes the window grants, sendall's DATA payloads concatenate to the
   bytes written (plus the unsent rest), and they project back onto the channel's stream *)
Theorem C21_sender_chunking :
  forall (grants : list nat) (s : list Z) (c : Z),
    let l := fst (sendall grants s) in
    let rest := snd (sendall grants s) in
    concat l ++ rest = s /\ data_of c (map (fun p => (c, Data p)) l) = concat l.
Proof. intros grants s c. split; [apply sendall_concat|apply data_of_own]. Qed.
Print Assumptions C21_sender_chunking.

(* the code BEFORE the repair (set_combine_stderr re-feeding outside the lock, _feed_extended
   taking no lock), at its real granularity: with A buffered on stderr and B arriving during
   the switch there is a schedule that puts B before A on stdout (order of the stderr stream
   inverted), and one that strands B on the stderr buffer although combining is on *)
Theorem C21_unlocked_combine_inverts :
  forall a b : list Z,
    m_out (mrun (mkM [] a false false false [])
                (mmerge [false; false; true; true] (prog_T b) prog_U)) = b ++ a.
Proof. reflexivity. Qed.
Print Assumptions C21_unlocked_combine_inverts.

Theorem C21_unlocked_combine_strands :
  forall a b : list Z,
    let s := mrun (mkM [] a false false false [])
                  (mmerge [true; false; false; false] (prog_T b) prog_U) in
    m_comb s = true /\ m_err s = b /\ m_out s = a.
Proof. cbn. auto. Qed.
Print Assumptions C21_unlocked_combine_strands.

(* the two schedules the channel lock leaves (each body atomic) both give A then B *)
Theorem C21_locked_combine_ordered :
  forall a b : list Z,
    let s0 := mkM [] a false false false [] in
    let s1 := mrun s0 (prog_T b ++ prog_U) in
    let s2 := mrun s0 (prog_U ++ prog_T b) in
    (m_out s1 = a ++ b /\ m_err s1 = [] /\ m_comb s1 = true) /\
    (m_out s2 = a ++ b /\ m_err s2 = [] /\ m_comb s2 = true).
Proof. intros a b. cbn. rewrite ?app_nil_r. auto. Qed.
Print Assumptions C21_locked_combine_ordered.

(* exit status at statement granularity: the handler stores exit_status and THEN sets
   status_event, the reader waits for the event and then reads; they share no lock.  For every
   interleaving of the two (every merge that is enabled, i.e. in which the reader got past its
   wait) the reader reports the status sent -- this is what justifies the one-step ExitStatus
   handler of the main model *)
Theorem C21_exit_status_concurrent :
  forall (old n : Z) (l : list xact) (s' : xstate),
    Merge (prog_handler n) prog_reader l -> xrun (xinit old) l = Some s' ->
    x_result s' = Some n.
Proof. exact exit_concurrent. Qed.
Print Assumptions C21_exit_status_concurrent.

(* ... and the order of the two statements is what it rests on: with the event set first there
   is an enabled interleaving in which the reader reports the stale value *)
Theorem C21_exit_status_set_first_races :
  forall old n : Z,
    exists l s', Merge (prog_handler_swapped n) prog_reader l /\
                 xrun (xinit old) l = Some s' /\ x_result s' = Some old.
Proof.
  intros old n. exists [XSet; RWait; RRead; XStore n]. eexists. split; [|split; reflexivity].
  unfold prog_handler_swapped, prog_reader. repeat constructor.
Qed.
Print Assumptions C21_exit_status_set_first_races.

(* sender with the window: whatever the window and maximum packet size, sendall's payloads plus
   the unsent rest are the bytes written, and the window is debited by exactly the bytes put
   on the wire (no leak: what the receiver credits back after consuming them restores it) *)
Theorem C21_sender_window :
  forall (w p : Z) (s : list Z),
    let r := sendall_win (S (length s)) w p s in
    concat (fst (fst r)) ++ snd (fst r) = s /\
    w - snd r = Z.of_nat (length (concat (fst (fst r)))).
Proof.
  intros w p s. cbv zeta. pose proof (sendall_win_ok (S (length s)) w p s) as H.
  destruct (sendall_win (S (length s)) w p s) as [[l rest] wf]. exact H.
Qed.
Print Assumptions C21_sender_window.

(* tie to the source, re-proved every run over Gen/C21_gen.v (regenerated by gen/c21.py): every
   modelled message kind has the number common.py gives it and Transport._channel_handler_table
   routes that number to the handler the model's [handle] mirrors; the table is a function; the
   stderr code, the packet overhead and Channel.__init__'s initial values are the model's *)
Theorem C21_source_dispatch :
  (forall m : msg, In (msg_ptype m, handler_code m) gen_handler_table) /\
  NoDup (map fst gen_handler_table).
Proof.
  split; [exact gen_dispatch|]. repeat constructor; cbn; intuition discriminate.
Qed.
Print Assumptions C21_source_dispatch.

Theorem C21_source_constants :
  gen_stderr_code = stderr_code /\ gen_packet_overhead = packet_overhead /\
  gen_initial_exit_status = c_exit chan0 /\ gen_initial_combine = c_comb chan0 /\
  gen_shapes_pinned = true /\
  (forall ch code s, code <> gen_stderr_code -> handle ch (ExtData code s) = ch) /\
  (forall c cid code s l, code <> gen_stderr_code ->
     ext_of c ((cid, ExtData code s) :: l) = ext_of c l) /\
  (forall len w p, 0 <= len <= w -> fst (send_size len w p) = Z.min len (p - gen_packet_overhead)).
Proof.
  repeat split; try reflexivity.
  - intros ch code s H. change gen_stderr_code with 1 in H. cbn [handle].
    destruct (Z.eqb_spec code 1); [contradiction|reflexivity].
  - intros c cid code s l H. change gen_stderr_code with 1 in H. rewrite ext_of_cons. cbn [ext1].
    destruct (Z.eqb_spec code 1); [contradiction|]. now destruct (cid =? c).
  - intros len w p H. change gen_packet_overhead with 64. unfold send_size. cbn [fst].
    destruct (w <? len) eqn:E1; destruct (p - 64 <? _) eqn:E2; lia.
Qed.
Print Assumptions C21_source_constants.

(* three channels, interleaved traffic, reads, a switch of combine_stderr *)
Definition ex_k : ctl := mkCtl true [1; 2; 7] [1; 2; 7].
Definition ex_ops : list op :=
  [Msg 1 (Data [10; 11]); Msg 2 (ExtData 1 [90]); Msg 7 (Data [70]); Recv 1 1;
   Msg 1 (ExtData 1 [20; 21]); Msg 2 (Data [30]); SetCombine 2 true; Msg 1 (Data [12]);
   Msg 2 (ExtData 1 [91]); Msg 7 (ExitStatus 3); RecvErr 1 5; Recv 2 10; Msg 1 (ExitStatus 0)].

Example C21_example_hyps :
  well_addressed ex_k (msgs_of ex_ops) /\ never_combined 1 ex_ops /\ no_recv_err 2 ex_ops /\
  c_comb (final (ex_k, fun _ => chan0) ex_ops 2) = true /\
  statuses 7 (msgs_of ex_ops) = [3].
Proof.
  repeat split; try reflexivity.
  - cbn in H. repeat (destruct H as [H|H]; [injection H as <- <-; reflexivity|]). destruct H.
  - cbn in H. repeat (destruct H as [H|H]; [injection H as <- <-; discriminate|]). destruct H.
  - intros c' b H Hc. cbn in H.
    repeat (destruct H as [H|H]; [try discriminate; injection H as <- <-; try lia|]). destruct H.
  - intros c' n H. cbn in H.
    repeat (destruct H as [H|H]; [try discriminate; injection H as <- <-; lia|]). destruct H.
Qed.

Example C21_example_values :
  OUT 1 (ex_k, fun _ => chan0) ex_ops = [10; 11; 12] /\
  ERR 1 (ex_k, fun _ => chan0) ex_ops = [20; 21] /\
  OUT 2 (ex_k, fun _ => chan0) ex_ops = [30; 90; 91] /\
  c_exit (final (ex_k, fun _ => chan0) ex_ops 7) = 3.
Proof. vm_compute. auto. Qed.

Example C21_example_exit_enabled :
  xrun (xinit (-1)) [XStore 23; XSet; RWait; RRead] = Some (mkX 23 true (Some 23)) /\
  Merge (prog_handler 23) prog_reader [XStore 23; XSet; RWait; RRead].
Proof. split; [reflexivity|unfold prog_handler, prog_reader; repeat constructor]. Qed.

Example C21_example_sender_window :
  sendall_win 11 8 (64 + 3) [1; 2; 3; 4; 5; 6; 7; 8; 9; 10] = ([[1; 2; 3]; [4; 5; 6]; [7; 8]], [9; 10], 0).
Proof. vm_compute. reflexivity. Qed.
