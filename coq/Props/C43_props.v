(* C43 -- group-exchange modulus selection honours the client's size range.
   The statements, each proved from the lemmas of Proofs/C43_proofs.v; the three size theorems
   are the three cases of get_modulus_size_spec there.
   [sizes] = the bit sizes present in the pack (any order, duplicates allowed);
   (mn, prefer, mx) = the request handed to ModulusPack.get_modulus, arbitrary integers
   (inverted and inconsistent requests included). *)
From Coq Require Import Lia.
From PV Require Import Bytes C43_gen C43 C43_proofs.
Open Scope Z_scope.

(* an in-range size at least the preferred size exists  ==>  the smallest such size is served *)
Theorem C43_smallest_ge_pref :
  forall sizes mn prefer mx,
    (forall s, In s sizes -> 0 <= s) ->
    (exists s, In s sizes /\ mn <= s <= mx /\ prefer <= s) ->
    let g := get_modulus_size sizes mn prefer mx in
    In g sizes /\ mn <= g <= mx /\ prefer <= g /\
    forall s, In s sizes -> mn <= s <= mx -> prefer <= s -> g <= s.
Proof.
  intros sizes mn prefer mx Hpos (s0 & Hs0 & Hr0 & Hp0).
  unfold get_modulus_size. cbv zeta.
  assert (Hne : sizes <> []) by (intros ->; destruct Hs0).
  destruct (get_modulus_size_spec true sizes mn prefer mx Hpos Hne) as (Hin & [(Hok & Hmin)|(Hno & _)]).
  - unfold scan1_ok in *. repeat split; try assumption; try lia.
    intros s Hs Hr Hp. apply Hmin; [exact Hs | lia].
  - destruct (Hno s0 Hs0). unfold scan1_ok. lia.
Qed.
Print Assumptions C43_smallest_ge_pref.

(* in-range sizes exist but all are below the preferred size  ==>  the largest in-range size *)
Theorem C43_else_largest_in_range :
  forall sizes mn prefer mx,
    (forall s, In s sizes -> 0 <= s) ->
    (exists s, In s sizes /\ mn <= s <= mx) ->
    (forall s, In s sizes -> mn <= s <= mx -> s < prefer) ->
    let g := get_modulus_size sizes mn prefer mx in
    In g sizes /\ mn <= g <= mx /\ forall s, In s sizes -> mn <= s <= mx -> s <= g.
Proof.
  intros sizes mn prefer mx Hpos (s0 & Hs0 & Hr0) Hlt.
  unfold get_modulus_size. cbv zeta.
  assert (Hne : sizes <> []) by (intros ->; destruct Hs0).
  destruct (get_modulus_size_spec true sizes mn prefer mx Hpos Hne)
    as (Hin & [(Hok & _)|(_ & [(Hr & Hmax)|(Hno & _)])]).
  - unfold scan1_ok in Hok. specialize (Hlt _ Hin). lia.
  - split; [exact Hin|]. split; [exact Hr | exact Hmax].
  - destruct (Hno s0 Hs0 Hr0).
Qed.
Print Assumptions C43_else_largest_in_range.

(* no in-range size at all (this includes every inverted request mn > mx): the smallest size
   the pack has, unless that is below min, in which case the largest *)
Theorem C43_out_of_range_fallback :
  forall sizes mn prefer mx,
    (forall s, In s sizes -> 0 <= s) ->
    sizes <> [] ->
    (forall s, In s sizes -> ~ (mn <= s <= mx)) ->
    let g := get_modulus_size sizes mn prefer mx in
    In g sizes /\
    ((mn <= g /\ forall s, In s sizes -> g <= s) \/
     ((exists s, In s sizes /\ s < mn) /\ forall s, In s sizes -> s <= g)).
Proof.
  intros sizes mn prefer mx Hpos Hne Hno.
  unfold get_modulus_size. cbv zeta.
  destruct (get_modulus_size_spec true sizes mn prefer mx Hpos Hne)
    as (Hin & [(Hok & _)|(_ & [(Hr & _)|(_ & Hends)])]).
  - destruct (Hno _ Hin). unfold scan1_ok in Hok. lia.
  - destruct (Hno _ Hin Hr).
  - split; [exact Hin | exact Hends].
Qed.
Print Assumptions C43_out_of_range_fallback.

(* whatever get_modulus returns is the (generator, modulus) of a line of the file that
   _parse_modulus accepted, stored under exactly the size chosen above *)
Theorem C43_never_offers_rejected_line :
  forall ls mn prefer mx r e,
    get_modulus (read_file ls) mn prefer mx r = Ok e ->
    exists l, In l ls /\
      parse_modulus l = Some (get_modulus_size (pack_sizes (read_file ls)) mn prefer mx, e).
Proof.
  intros ls mn prefer mx r e H. apply get_modulus_entry in H. now apply read_file_entries in H.
Qed.
Print Assumptions C43_never_offers_rejected_line.

(* ... and an accepted line met the type / test / tries / bit-length requirements (the literal
   thresholds of the statement; the model's come from the source via Gen/C43_gen.v, so a changed
   threshold in primes.py breaks this proof) *)
Theorem C43_accepted_line_meets_requirements :
  forall l bl g m,
    parse_modulus l = Some (bl, (g, m)) ->
    exists mod_type tests tries size generator,
      l = Line mod_type tests tries size generator m /\
      2 <= mod_type /\ 4 <= tests /\
      ~ (Z.land tests 4 <> 0 /\ tests < 8 /\ tries < 100) /\
      bl = bit_length m /\ (bl = size \/ bl = size + 1) /\
      g = (if generator =? 0 then 2 else generator).
Proof. exact parse_modulus_accepts. Qed.
Print Assumptions C43_accepted_line_meets_requirements.

(* the sizes of the pack are exactly the bit lengths of the accepted lines (all >= 0), so the
   three size theorems apply to pack_sizes (read_file ls) *)
Theorem C43_pack_sizes :
  forall ls k,
    (In k (pack_sizes (read_file ls)) <-> exists l e, In l ls /\ parse_modulus l = Some (k, e))
    /\ (In k (pack_sizes (read_file ls)) -> 0 <= k).
Proof. intros ls k. split; [apply read_file_sizes | apply pack_sizes_nonneg]. Qed.
Print Assumptions C43_pack_sizes.

(* a file with at least one accepted line always yields an offer, for every request and pick *)
Theorem C43_offers_something :
  forall ls mn prefer mx r,
    (exists l, In l ls /\ parse_modulus l <> None) ->
    exists e, get_modulus (read_file ls) mn prefer mx r = Ok e.
Proof.
  intros ls mn prefer mx r (l & Hl & Hp). apply get_modulus_offers.
  (* the pack has a size, so the size chosen is one of them, and a size has the entries of its lines *)
  assert (Hne : pack_sizes (read_file ls) <> []).
  { destruct (parse_modulus l) as [[k e]|] eqn:E; [|congruence].
    assert (Hk : In k (pack_sizes (read_file ls))) by (apply read_file_sizes; eauto).
    intros E0. rewrite E0 in Hk. destruct Hk. }
  destruct (get_modulus_size_spec true _ mn prefer mx (pack_sizes_nonneg ls) Hne) as [Hin _].
  apply read_file_sizes in Hin as (l' & e' & Hl' & Hp').
  assert (He : In e' (pack_get (read_file ls) (get_modulus_size_gen true (pack_sizes (read_file ls)) mn prefer mx)))
    by (apply read_file_entries; eauto).
  intros E0. rewrite E0 in He. destruct He.
Qed.
Print Assumptions C43_offers_something.

(* KexGex: the request handed to get_modulus is always consistent and only ever widened *)
Theorem C43_gex_request_consistent :
  forall smin smax mn prefer mx,
    smin <= smax ->
    let '(a, b, c) := normalise_request smin smax mn prefer mx in
    a <= b <= c /\ smin <= b <= smax /\ a <= mn /\ mx <= c.
Proof. intros smin smax mn prefer mx H. rewrite normalise_request_eq. cbv beta iota zeta. lia. Qed.
Print Assumptions C43_gex_request_consistent.

(* KexGex: a consistent request whose preferred size is within the server's limits is served
   exactly as get_modulus serves the client's own (min, preferred, max) *)
Theorem C43_gex_honours_consistent_request :
  forall smin smax p mn prefer mx r,
    mn <= prefer <= mx -> smin <= prefer <= smax ->
    gex_serve p smin smax mn prefer mx r = get_modulus p mn prefer mx r.
Proof.
  intros smin smax p mn prefer mx r H1 H2. unfold gex_serve. rewrite normalise_request_eq. cbv beta iota zeta.
  rewrite (Z.min_r smax), (Z.max_l prefer), Z.min_r, Z.max_l by lia. reflexivity.
Qed.
Print Assumptions C43_gex_honours_consistent_request.

(* the same two statements at the limits the source has now (Gen/C43_gen.v), which are sane *)
Theorem C43_gex_limits :
  1024 <= gex_min_bits <= gex_preferred_bits /\ gex_preferred_bits <= gex_max_bits.
Proof. unfold gex_min_bits, gex_preferred_bits, gex_max_bits. lia. Qed.
Print Assumptions C43_gex_limits.

Theorem C43_gex_live_request_consistent :
  forall mn prefer mx,
    let '(a, b, c) := normalise_request gex_min_bits gex_max_bits mn prefer mx in
    a <= b <= c /\ gex_min_bits <= b <= gex_max_bits /\ a <= mn /\ mx <= c.
Proof. intros mn prefer mx. apply C43_gex_request_consistent. pose proof C43_gex_limits. lia. Qed.
Print Assumptions C43_gex_live_request_consistent.

Theorem C43_gex_live_honours_consistent_request :
  forall p mn prefer mx r,
    mn <= prefer <= mx -> gex_min_bits <= prefer <= gex_max_bits ->
    gex_serve_live p mn prefer mx r = get_modulus p mn prefer mx r.
Proof. intros p. apply C43_gex_honours_consistent_request. Qed.
Print Assumptions C43_gex_live_honours_consistent_request.

(* KexGex never reaches the first-scan defect: on normalised requests the code before the
   repair and the repaired code choose the same size *)
Theorem C43_gex_unaffected_by_first_scan :
  forall smin smax sizes mn prefer mx,
    smin <= smax ->
    let '(a, b, c) := normalise_request smin smax mn prefer mx in
    get_modulus_size_v0 sizes a b c = get_modulus_size sizes a b c.
Proof.
  (* the normalised minimum is a minimum with the normalised preferred size *)
  intros smin smax sizes mn prefer mx _. rewrite normalise_request_eq. cbv zeta.
  apply get_modulus_size_v0_agrees. lia.
Qed.
Print Assumptions C43_gex_unaffected_by_first_scan.

(* the code before the repair (first scan ignores min): an in-range size >= preferred exists,
   yet the size served is out of range.  Witness (4096, 2048, 8192) over {2048, 4096}. *)
Theorem C43_v0_first_scan_refuted :
  exists sizes mn prefer mx,
    (exists s, In s sizes /\ mn <= s <= mx /\ prefer <= s) /\
    ~ (mn <= get_modulus_size_v0 sizes mn prefer mx <= mx).
Proof.
  exists [2048; 4096], 4096, 2048, 8192. split.
  - exists 4096. cbn. lia.
  - vm_compute. intros [H _]. apply H. reflexivity.
Qed.
Print Assumptions C43_v0_first_scan_refuted.

(* non-vacuity, and the documented limits of the statement *)
Example C43_example_hypotheses_met :
  (exists s, In s [2048; 3072; 4096] /\ 2000 <= s <= 8192 /\ 3000 <= s) /\
  get_modulus_size [4096; 2048; 3072] 2000 3000 8192 = 3072 /\
  get_modulus_size [4096; 2048; 3072] 1024 9000 3500 = 3072 /\
  get_modulus_size [4096; 2048; 3072] 4096 2048 8192 = 4096 /\
  get_modulus_size [4096; 2048; 3072] 100 200 300 = 2048 /\
  get_modulus_size [4096; 2048; 3072] 9000 9000 9999 = 4096.
Proof. split; [exists 3072; cbn; lia | vm_compute; repeat split]. Qed.

(* the widening KexGex applies to an inconsistent request: the client's (4096, 2048, 8192)
   becomes (2048, 2048, 8192) and size 2048 is served although 4096 is in the client's range.
   This is the source's documented policy ("fix min/max if they're inconsistent"); the
   property is claimed for consistent requests (C43_gex_honours_consistent_request). *)
Example C43_gex_widens_inconsistent_request :
  normalise_request 1024 8192 4096 2048 8192 = (2048, 2048, 8192) /\
  get_modulus_size [2048; 4096] 2048 2048 8192 = 2048.
Proof. vm_compute. split; reflexivity. Qed.

Example C43_example_file :
  let ls := [Bad; Line 2 6 100 15 0 40961; Line 1 6 100 15 2 40961; Line 2 6 99 15 2 40961;
             Line 2 6 100 13 2 40961; Line 2 8 0 16 5 40961] in
  get_modulus (read_file ls) 1 16 20 1 = Ok (5, 40961) /\
  get_modulus (read_file ls) 1 16 20 0 = Ok (2, 40961).
Proof. vm_compute. split; reflexivity. Qed.
