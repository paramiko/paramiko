(* C36 — keys survive serialisation; new key files are private to the owner; equality and hashing depend
   only on the public key material.
   PARTIAL by nature: the private-key round trip through the file (PEM encryption, passphrases) is
   entirely the cryptography library's and is tested, not proved; library validations and UTF-8
   decoding are universally quantified oracles. *)
From PV Require Import Bytes ListFacts C39 C35 C36 C36_proofs.
Open Scope Z_scope.

(* asbytes() parsed by the same class's data= / msg= constructor gives back exactly the public material
   (no certificate), for every key the library accepts; hence asbytes, and so every fingerprint (a hash of
   asbytes), are equal too *)
Theorem C36_pub_roundtrip :
  forall utf8_ok rsa_numbers_ok on_curve,
    (forall s, ascii s = true -> utf8_ok s = true) ->
    forall p bs,
      pub_wf rsa_numbers_ok on_curve p -> asbytes p = Ok bs ->
      from_blob utf8_ok rsa_numbers_ok on_curve (cls_of p) bs = Ok (p, false).
Proof.
  intros utf8_ok rsa_numbers_ok on_curve Hascii p bs.
  destruct p as [e n|c x y|pk]; cbn [pub_wf cls_of]; unfold from_blob; cbn.
  - apply roundtrip_rsa. exact Hascii.
  - intros (Hc & Hx & Hy & Hon). apply roundtrip_ecdsa; assumption.
  - intros [_ Hl]. apply roundtrip_ed; assumption.
Qed.
Print Assumptions C36_pub_roundtrip.

(* __eq__ holds exactly when the public material is equal (so never across classes or curves); equal public
   material gives equal __hash__ for every hash function; and neither depends on the private half, the
   certificate (public_blob) or a comment *)
Theorem C36_eq_hash_public_only :
  forall k1 k2,
    curve_ok (k_pub k1) -> curve_ok (k_pub k2) ->
    (key_eq k1 k2 = true <-> k_pub k1 = k_pub k2) /\
    (k_pub k1 = k_pub k2 -> forall h, key_hash h k1 = key_hash h k2) /\
    (forall priv cert comment,
        key_eq (mk_key (k_pub k1) priv cert comment) k2 = key_eq k1 k2 /\
        forall h, key_hash h (mk_key (k_pub k1) priv cert comment) = key_hash h k1).
Proof.
  intros k1 k2 W1 W2. split; [apply eq_iff_pub; assumption|]. split.
  - intros E h. unfold key_hash, fields. rewrite E. reflexivity.
  - intros. split; [reflexivity|]. intros h. reflexivity.
Qed.
Print Assumptions C36_eq_hash_public_only.

(* a key file that did not exist is created with mode 0600 & ~umask: never any group / other bit, never a
   bit outside 0600, for EVERY umask; exactly 0600 whenever the umask leaves the owner's rw bits alone *)
Theorem C36_new_file_0600 :
  forall fs umask path content,
    fs_get fs path = None ->
    exists m, fs_get (write_private_key_file fs umask path content) path = Some (m, content) /\
              m = Z.land o600 (Z.lnot umask) /\
              Z.land m 63 = 0 /\ Z.land m (Z.lnot o600) = 0 /\
              (Z.land umask o600 = 0 -> m = o600).
Proof.
  intros fs umask path content Hn. unfold write_private_key_file.
  eexists. split; [rewrite write_key_file_get, Hn; reflexivity|]. split; [reflexivity|].
  split; [apply masked_disjoint; reflexivity|]. split; [apply masked_subset | apply masked_full].
Qed.
Print Assumptions C36_new_file_0600.

(* a PRE-EXISTING target keeps its permission bits whatever they were (a 0644 file stays 0644 and now holds
   the private key): os.open's mode argument only applies on creation.  This does not contradict "a newly
   created key file is readable and writable only by its owner" - the file is not newly created - but the
   key is then as exposed as the old file was; no other file is touched *)
Theorem C36_existing_file_mode :
  forall fs umask path content m old,
    fs_get fs path = Some (m, old) ->
    fs_get (write_private_key_file fs umask path content) path = Some (m, content) /\
    forall q, q <> path -> fs_get (write_private_key_file fs umask path content) q = fs_get fs q.
Proof.
  intros fs umask path content m old H. unfold write_private_key_file. split.
  - rewrite write_key_file_get, H. reflexivity.
  - intros q Hq. apply write_key_file_other. exact Hq.
Qed.
Print Assumptions C36_existing_file_mode.

(* non-vacuity and the concrete 0644 case *)
Example C36_example :
  fs_get (write_private_key_file [(1, (420, [1; 2]))] 18 1 [9]) 1 = Some (420, [9]) /\       (* 0644 stays 0644 *)
  fs_get (write_private_key_file [] 18 1 [9]) 1 = Some (384, [9]) /\                          (* umask 022: 0600 *)
  fs_get (write_private_key_file [] 0 1 [9]) 1 = Some (384, [9]) /\                           (* umask 000: 0600 *)
  fs_get (write_private_key_file [] 191 1 [9]) 1 = Some (256, [9]) /\                         (* umask 0277: 0400 *)
  exists bs, asbytes (PEc 0 5 7) = Ok bs /\
             from_blob (fun _ => true) (fun _ _ => true) (fun _ _ _ => true) 1 bs = Ok (PEc 0 5 7, false).
Proof. do 4 (split; [vm_compute; reflexivity|]). eexists. split; [vm_compute; reflexivity|]. vm_compute. reflexivity. Qed.
