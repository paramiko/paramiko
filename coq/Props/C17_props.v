(* C17 -- client credentials are only sent to a verified, accepted server. *)
From PV Require Import Bytes C41 C17 C17_proofs.
From PV Require C41_proofs.
Open Scope Z_scope.

(* For EVERY interleaving of network messages (an arbitrary peer) and user calls (auth_X from any
   thread at any time, close): whenever the client emits a USERAUTH_REQUEST carrying a credential,
   the events "host key signature verified", "outbound keys installed (NEWKEYS sent)" and "inbound
   NEWKEYS processed" have occurred before it, in this order.  So nothing leaves in plaintext or
   towards a peer whose host key signature was not verified. *)
Theorem C17_after_kex :
  forall (evs : list event) (pre : list obs) (c : cred) (post : list obs),
    run evs = pre ++ OUserauth c :: post ->
    subseq [OVerifyKeyOk; ONewkeysOut; ONewkeysIn] pre.
Proof. intros evs pre c post. now apply run_guarded. Qed.
Print Assumptions C17_after_kex.

(* the same for the SERVICE_REQUEST "ssh-userauth" that precedes it *)
Theorem C17_service_request_after_kex :
  forall (evs : list event) (pre post : list obs),
    run evs = pre ++ OServiceRequest :: post ->
    subseq [OVerifyKeyOk; ONewkeysOut; ONewkeysIn] pre.
Proof. intros evs pre post. now apply run_guarded. Qed.
Print Assumptions C17_service_request_after_kex.

(* the guard that opens every auth_X method: inactive or before the first NEWKEYS it raises
   "No existing session", changes nothing and sends nothing *)
Theorem C17_guard_refuses :
  forall (s : st) (c : cred),
    s_active s = false \/ s_kex_done s = false ->
    user_step s (UAuth c) = (s, [ONoSession]).
Proof. intros s c [H|H]; cbn; rewrite H; [reflexivity | now rewrite orb_true_r]. Qed.
Print Assumptions C17_guard_refuses.

(* once the transport has ended (failed signature check, unexpected packet, close) nothing is sent
   any more, whatever arrives and whatever is called *)
Theorem C17_dead_transport_sends_nothing :
  forall (evs : list event) (s s' : st) (tr : list obs),
    s_active s = false -> run_from s evs = (s', tr) ->
    s_active s' = false /\ forall o, In o tr -> o = ONoSession.
Proof.
  induction evs as [|e evs IH]; intros s s' tr Ha E; cbn [run_from] in E.
  - now injection E as <- <-.
  - destruct (step_inactive s e Ha) as [Ha1 Ho1].
    destruct (step s e) as [s1 o1]. destruct (run_from s1 evs) as [s2 o2] eqn:E2.
    injection E as <- <-. destruct (IH s1 s2 o2 Ha1 E2) as [Ha2 Ho2].
    split; [assumption|]. intros o Hin. apply in_app_or in Hin as [Hin | Hin]; auto.
Qed.
Print Assumptions C17_dead_transport_sends_nothing.

(* Transport.connect(hostkey=k): a server presenting another key gets no auth_X call *)
Theorem C17_hostkey_mismatch_sends_nothing :
  forall (k : key) (gss_kex kex_ok want : bool) (sk : key),
    gss_kex = false -> sk <> k ->
    ~ In CAuth (fst (transport_connect (Some k) gss_kex kex_ok want sk)) /\
    snd (transport_connect (Some k) gss_kex kex_ok want sk) = Raise SSHExc.
Proof.
  intros k gss_kex kex_ok want sk -> Hne. unfold transport_connect.
  destruct kex_ok; cbn; [|now split].
  destruct (key_eqb sk k) eqn:E; [now apply C41_proofs.key_eqb_eq in E|]. cbn.
  split; [now intros [|[|[]]] | reflexivity].
Qed.
Print Assumptions C17_hostkey_mismatch_sends_nothing.

(* and when auth_X is called, the key exchange is complete and the comparison succeeded before *)
Theorem C17_transport_connect_order :
  forall (expected : option key) (gss_kex kex_ok want : bool) (sk : key),
    In CAuth (fst (transport_connect expected gss_kex kex_ok want sk)) ->
    kex_ok = true /\
    match expected with
    | Some k => if gss_kex then fst (transport_connect expected gss_kex kex_ok want sk) = [CKexDone; CAuth]
                else sk = k /\ fst (transport_connect expected gss_kex kex_ok want sk) = [CKexDone; CCompare true; CAuth]
    | None => fst (transport_connect expected gss_kex kex_ok want sk) = [CKexDone; CAuth]
    end.
Proof.
  intros expected gss_kex kex_ok want sk. unfold transport_connect.
  destruct kex_ok; cbn; [|intros []].
  destruct expected as [k|]; [destruct gss_kex; [|destruct (key_eqb sk k) eqn:E; [apply C41_proofs.key_eqb_eq in E|]]|].
  all: destruct want; cbn; intuition discriminate.
Qed.
Print Assumptions C17_transport_connect_order.

(* SSHClient.connect: a host that has known keys (system or user known_hosts, looked up under
   "host" or "[host]:port", plain or hashed entries) and presents a key that is not the stored key
   of its type: BadHostKeyException, no authentication, the policy is not consulted *)
Theorem C17_known_host_mismatch_sends_nothing :
  forall (hm : hmap) (sys usr : state) (h b port : Z) (p : policy) (kex_ok : bool) (sk : key) (es : list entry),
    our_server_keys hm sys usr (hostkey_name h b port) = Some es ->
    subdict_get es (ktype sk) <> Some sk ->
    ~ In CAuth (fst (client_connect hm sys usr h b port p false kex_ok sk)) /\
    ~ In (CPolicy true) (fst (client_connect hm sys usr h b port p false kex_ok sk)) /\
    (kex_ok = true -> snd (client_connect hm sys usr h b port p false kex_ok sk) = Raise bad_host_key).
Proof.
  intros hm sys usr h b port p kex_ok sk es Eo Hne.
  pose proof (client_connect_cases hm sys usr h b port p false kex_ok sk) as C. rewrite Eo in C.
  destruct C as [-> | _ [=] | _ _ [=] | _ _ [=] | es' _ _ [= <-] Eg | es' _ _ _ _]; cbn;
    intuition discriminate.
Qed.
Print Assumptions C17_known_host_mismatch_sends_nothing.

(* SSHClient.connect authenticates only after the key exchange and after either the stored key
   matched or (unknown host) the missing-host-key policy accepted; (GSS-API key exchange exempt,
   as in the code) *)
Theorem C17_policy_first :
  forall (hm : hmap) (sys usr : state) (h b port : Z) (p : policy) (gss kex_ok : bool) (sk : key),
    In CAuth (fst (client_connect hm sys usr h b port p gss kex_ok sk)) ->
    kex_ok = true /\
    (gss = true \/
     (our_server_keys hm sys usr (hostkey_name h b port) = None /\ policy_accepts p = true /\
      fst (client_connect hm sys usr h b port p gss kex_ok sk) = [CKexDone; CPolicy true; CAuth]) \/
     (exists es, our_server_keys hm sys usr (hostkey_name h b port) = Some es /\
                 subdict_get es (ktype sk) = Some sk /\
                 fst (client_connect hm sys usr h b port p gss kex_ok sk) = [CKexDone; CCompare true; CAuth])).
Proof.
  intros hm sys usr h b port p gss kex_ok sk.
  destruct (client_connect_cases hm sys usr h b port p gss kex_ok sk)
    as [_ | -> -> | -> _ Eo Ep | _ _ _ _ | es -> _ Eo Eg | es _ _ _ _]; cbn.
  - intros [].
  - now auto.
  - intros _. split; [reflexivity|]. right. left. now repeat split.
  - intuition discriminate.
  - intros _. split; [reflexivity|]. right. right. now exists es.
  - intuition discriminate.
Qed.
Print Assumptions C17_policy_first.

(* an unknown host under a rejecting policy (RejectPolicy, a custom policy that raises) *)
Theorem C17_reject_sends_nothing :
  forall (hm : hmap) (sys usr : state) (h b port : Z) (p : policy) (kex_ok : bool) (sk : key),
    our_server_keys hm sys usr (hostkey_name h b port) = None -> policy_accepts p = false ->
    ~ In CAuth (fst (client_connect hm sys usr h b port p false kex_ok sk)) /\
    snd (client_connect hm sys usr h b port p false kex_ok sk) = Raise SSHExc.
Proof.
  intros hm sys usr h b port p kex_ok sk Eo Ep.
  pose proof (client_connect_cases hm sys usr h b port p false kex_ok sk) as C. rewrite Eo in C.
  destruct C as [_ | _ [=] | _ _ _ Ep' | _ _ _ _ | es _ _ [=] | es _ _ [=]]; cbn;
    [|now rewrite Ep in Ep'|]; intuition discriminate.
Qed.
Print Assumptions C17_reject_sends_nothing.

(* a host with stored keys is never handed to the policy *)
Theorem C17_known_host_no_policy :
  forall (hm : hmap) (sys usr : state) (h b port : Z) (p : policy) (gss kex_ok : bool) (sk : key)
         (es : list entry) (a : bool),
    our_server_keys hm sys usr (hostkey_name h b port) = Some es ->
    ~ In (CPolicy a) (fst (client_connect hm sys usr h b port p gss kex_ok sk)).
Proof.
  intros hm sys usr h b port p gss kex_ok sk es a Eo.
  pose proof (client_connect_cases hm sys usr h b port p gss kex_ok sk) as C. rewrite Eo in C.
  destruct C as [_ | _ _ | _ _ [=] | _ _ [=] | es' _ _ _ _ | es' _ _ _ _]; cbn; intuition discriminate.
Qed.
Print Assumptions C17_known_host_no_policy.

(* The exemption of GSS-API key exchange from host key checking applies only when a gss method was
   NEGOTIATED (Transport.gss_kex_used is set by the GSS kex engines only): a peer that merely
   advertises gss-X names in its KEXINIT is checked like any other *)
Theorem C17_advertised_gss_irrelevant :
  forall n a1 a2 : bool, gss_kex_used_flag n a1 = gss_kex_used_flag n a2.
Proof. reflexivity. Qed.
Print Assumptions C17_advertised_gss_irrelevant.

Theorem C17_advertised_gss_still_checked :
  forall (hm : hmap) (sys usr : state) (h b port : Z) (p : policy) (adv kex_ok : bool) (sk : key) (es : list entry),
    our_server_keys hm sys usr (hostkey_name h b port) = Some es ->
    subdict_get es (ktype sk) <> Some sk ->
    ~ In CAuth (fst (client_connect hm sys usr h b port p (gss_kex_used_flag false adv) kex_ok sk)).
Proof.
  intros hm sys usr h b port p adv kex_ok sk es Eo Hne.
  exact (proj1 (C17_known_host_mismatch_sends_nothing hm sys usr h b port p kex_ok sk es Eo Hne)).
Qed.
Print Assumptions C17_advertised_gss_still_checked.

Theorem C17_advertised_gss_still_policy :
  forall (hm : hmap) (sys usr : state) (h b port : Z) (p : policy) (adv kex_ok : bool) (sk : key),
    our_server_keys hm sys usr (hostkey_name h b port) = None -> policy_accepts p = false ->
    ~ In CAuth (fst (client_connect hm sys usr h b port p (gss_kex_used_flag false adv) kex_ok sk)).
Proof.
  intros hm sys usr h b port p adv kex_ok sk Eo Ep.
  exact (proj1 (C17_reject_sends_nothing hm sys usr h b port p kex_ok sk Eo Ep)).
Qed.
Print Assumptions C17_advertised_gss_still_policy.

(* an honest session: KEXINIT, kex reply with a good signature, NEWKEYS, then auth_password from
   the user thread, SERVICE_ACCEPT: the password leaves, after the three kex events; the same call
   made one message earlier is refused *)
Example C17_honest_run :
  run [EvNet (NKexInit true); EvNet (NKex true true); EvUser (UAuth CPassword); EvNet NNewKeys;
       EvUser (UAuth CPassword); EvNet NServiceAccept]
  = [OVerifyKeyOk; ONewkeysOut; ONoSession; ONewkeysIn; OServiceRequest; OUserauth CPassword].
Proof. vm_compute. reflexivity. Qed.

(* a peer that skips the signed reply, or sends a bad signature, never sees a credential *)
Example C17_early_newkeys :
  run [EvNet (NKexInit false); EvNet NNewKeys; EvUser (UAuth CPassword); EvNet NServiceAccept]
  = [ODied; ONoSession] /\
  run [EvNet (NKexInit false); EvNet (NKex true false); EvNet NNewKeys; EvUser (UAuth CPublickey);
       EvNet NServiceAccept]
  = [ODied; ONoSession].
Proof. split; vm_compute; reflexivity. Qed.

(* SSHClient.connect on a non-default port with the key stored under the bracketed name (hashed
   entry 9 matching name 2 = "[host]:2222"): authenticated; stored under the bare host name only:
   the host is unknown and RejectPolicy refuses it *)
Example C17_client_connect_examples :
  client_connect [(2, 9)] [] [([Nm true 9], (1, 5))] 1 2 2222 PReject false true (1, 5)
    = ([CKexDone; CCompare true; CAuth], Ok tt) /\
  client_connect [] [] [([Nm false 1], (1, 5))] 1 2 2222 PReject false true (1, 5)
    = ([CKexDone; CPolicy false], Raise SSHExc) /\
  client_connect [] [] [([Nm false 1], (1, 5))] 1 2 22 PAutoAdd false true (1, 6)
    = ([CKexDone; CCompare false], Raise bad_host_key).
Proof. repeat split; vm_compute; reflexivity. Qed.
