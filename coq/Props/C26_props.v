(* C26 -- channel receive buffers (paramiko.buffered_pipe.BufferedPipe) are lossless FIFOs
   with correct close and timeout rules, under any interleaving.

   Reading guide: [ps] are the thread programs (lists of atomic actions = critical sections
   of feed / read / empty / close / set_event, tagged with the thread id; a read is ARead
   followed by one AWake per return of cv.wait, whose clock reading dt is an arbitrary
   environment input); [sched] is any merge of them; [run init sched = Some s] says every
   action was enabled when scheduled (a blocked read is not enabled until notified or timed). *)
From PV Require Import Bytes Sched C26 C26_proofs.
Open Scope Z_scope.

(* everything read and emptied, in completion order, followed by what is still buffered, is
   exactly everything fed, in order -- after every interleaving of every set of programs *)
Theorem C26_fifo :
  forall (ps : list (list action)) (sched : list action) (s : state),
    interleave ps sched -> run init sched = Some s ->
    got_of (hist s) ++ buf s = feeds sched.
Proof.
  intros ps sched s _. apply reach_fifo.
Qed.
Print Assumptions C26_fifo.

(* a read of size >= 1 returns the empty string only when the pipe is closed and drained:
   a close precedes it in the schedule and everything fed before it has been delivered *)
Theorem C26_empty_only_when_closed :
  forall (ps : list (list action)) sched pre a post s s' n,
    interleave ps sched -> sched = pre ++ a :: post ->
    run init pre = Some s -> step s a = Some (s', ORet n []) -> 1 <= n ->
    closed s = true /\ buf s = [] /\
    (exists j, In (j, AClose) pre) /\ got_of (hist s) = feeds pre.
Proof.
  intros ps sched pre [i x] post s s' n _ _ Hrun (s1 & Hcore & _)%step_gen_core Hn.
  destruct (core_spec _ _ _ _ _ Hcore) as (_ & _ & _ & R & _). destruct (R n eq_refl Hn) as [Hb Hc].
  pose proof (reach_fifo pre s Hrun) as F. rewrite Hb, app_nil_r in F.
  repeat split; auto.
  destruct (closed_hist _ _ _ Hrun Hc) as [H0|H0]; [discriminate H0|exact H0].
Qed.
Print Assumptions C26_empty_only_when_closed.

(* PipeTimeout leaves the buffer, the closed flag and the delivered data untouched (so by
   C26_fifo the data is there for later reads) *)
Theorem C26_timeout_keeps_data :
  forall (ps : list (list action)) sched pre a post s s',
    interleave ps sched -> sched = pre ++ a :: post ->
    run init pre = Some s -> step s a = Some (s', OTimeout) ->
    buf s' = buf s /\ closed s' = closed s /\ got_of (hist s') = got_of (hist s).
Proof.
  intros ps sched pre [i x] post s s' _ _ _ (s1 & Hcore & ->)%step_gen_core.
  destruct (core_spec _ _ _ _ _ Hcore) as (_ & Hh & _ & _ & T). destruct (T eq_refl) as (Hb & Hc & _).
  cbn in *. now rewrite Hh, app_nil_r.
Qed.
Print Assumptions C26_timeout_keeps_data.

(* PipeTimeout is raised only when no data is buffered, for every clock reading (code as
   repaired by fixes/C26-timeout-retest-buffer.diff) *)
Theorem C26_timeout_only_if_no_data :
  forall (ps : list (list action)) sched pre a post s s',
    interleave ps sched -> sched = pre ++ a :: post ->
    run init pre = Some s -> step s a = Some (s', OTimeout) ->
    buf s = [] /\ got_of (hist s) = feeds pre.
Proof.
  intros ps sched pre [i x] post s s' _ _ Hrun (s1 & Hcore & _)%step_gen_core.
  destruct (core_spec _ _ _ _ _ Hcore) as (_ & _ & _ & _ & T). destruct (T eq_refl) as (_ & _ & Hb).
  pose proof (reach_fifo pre s Hrun) as F. rewrite (Hb eq_refl), app_nil_r in F. auto.
Qed.
Print Assumptions C26_timeout_only_if_no_data.

(* the original order of tests (deadline before buffer) violates it: a feed that lands while
   the reader waits, with the clock at the deadline, gives PipeTimeout with data buffered *)
Theorem C26_timeout_only_if_no_data_v0_refuted :
  exists sched s a s',
    run_v0 init sched = Some s /\ step_v0 s a = Some (s', OTimeout) /\ buf s <> [].
Proof.
  exists v0_sched. eexists. exists (1, AWake 5). eexists.
  split; [vm_compute; reflexivity|]. split; [vm_compute; reflexivity|]. cbn. discriminate.
Qed.
Print Assumptions C26_timeout_only_if_no_data_v0_refuted.

(* no lost wake-up: in every reachable state with data buffered or the pipe closed, every
   blocked reader has been notified, its wake-up is enabled for every clock reading, and the
   wake-up completes the read (data, end-of-file or timeout -- never back to waiting) *)
Theorem C26_no_lost_wakeup :
  forall (ps : list (list action)) sched pre post s i w,
    interleave ps sched -> sched = pre ++ post -> run init pre = Some s ->
    waiters s i = Some w -> (buf s <> [] \/ closed s = true) ->
    w_notified w = true /\
    forall dt, exists s' o, step s (i, AWake dt) = Some (s', o) /\ o <> OBlocked.
Proof.
  intros ps sched pre post s i w _ _ Hrun Hw Hready.
  pose proof (reach_inv Iwake pre s Iwake_init wake_step Hrun) as I.
  assert (Hn : w_notified w = true).
  { destruct (w_notified w) eqn:E; [reflexivity|].
    destruct (I i w Hw E) as [Hb Hc]. destruct Hready; congruence. }
  split; [exact Hn|]. intros dt. exact (wake_completes true s i w dt Hw Hn Hready).
Qed.
Print Assumptions C26_no_lost_wakeup.

(* the event installed by set_event is set whenever the pipe is readable or closed *)
Theorem C26_event_set_when_ready :
  forall (ps : list (list action)) sched pre post s,
    interleave ps sched -> sched = pre ++ post -> run init pre = Some s ->
    has_ev s = true -> (buf s <> [] \/ closed s = true) -> ev s = true.
Proof.
  intros ps sched pre post s _ _ Hrun.
  exact (reach_inv Iev pre s Iev_init ev_step Hrun).
Qed.
Print Assumptions C26_event_set_when_ready.

(* non-vacuity: three threads; the reader blocks, is fed, wakes exactly at its deadline and
   still gets the data (partial read), empty() takes the rest, a second read blocks, close
   wakes it and it returns end-of-file *)
Example C26_example :
  interleave ex_progs ex_sched /\
  exists s, run init ex_sched = Some s /\ buf s = [] /\ closed s = true /\
            got_of (hist s) = [1; 2; 3] /\
            map (fun e => snd e) (rev (hist s)) =
              [OBlocked; ODone; ORet 2 [1; 2]; OEmptied [3]; OBlocked; ODone; ORet 2 []].
Proof.
  split.
  - apply (merge_by_sound [1; 0; 1; 2; 1; 0; 1]%nat). vm_compute. reflexivity.
  - eexists. split; [vm_compute; reflexivity|]. repeat split; reflexivity.
Qed.

(* the refutation schedule on the repaired code returns the data instead *)
Example C26_example_repaired :
  exists s s', run init v0_sched = Some s /\ step s (1, AWake 5) = Some (s', ORet 2 [7]).
Proof. eexists. eexists. split; vm_compute; reflexivity. Qed.
