(* C09 -- strict key exchange stops handshake sequence-number manipulation (Terrapin).
   Model: Model/C09.v.  `session mac_ok c ins` = everything one Transport does from the start of run()
   when fed the inputs `ins` (wire packets, and sends by other threads); `step` = one iteration of the run
   loop; `mac_ok` = the packetizer's MAC verification, constrained only by `mac_binds` (C02's premise). *)
From Coq Require Import Lia.
From PV Require Import Bytes ListFacts C09_gen C09 C09_proofs.
Open Scope Z_scope.

(* In every reachable state with strict kex agreed and the initial key exchange not finished, a packet
   whose type is not the next expected key-exchange message ends the connection: MessageOrderError
   (or the DISCONNECT it carries closes the transport, or it could not even be read). *)
Theorem C09_strict_abort :
  forall mac_ok c ins st outs p,
    session mac_ok c ins = (Continue, st, outs) ->
    agreed st = true -> kdone st = false ->
    mem (p_type p) (expected st) = false ->
    let o := fst (fst (step mac_ok c st p)) in
    o = AbortMOE \/ (p_type p = MSG_DISCONNECT /\ o = Closed) \/
    (readable mac_ok st p = false /\ o = AbortSSH).
Proof.
  intros mac_ok c ins st outs p HS Ha Hd Hm. apply session_inv in HS. destruct (HS Hd) as (A & _).
  apply step_strict_abort; auto.
Qed.
Print Assumptions C09_strict_abort.

(* ... and a type outside the generated universe g_expect_universe (every type passed to _expect_packet
   anywhere in paramiko, extracted from the source each run: currently 20, 21, 30..34 and the GSS 40, 41)
   is never the next expected message while the initial key exchange runs, for every kex method and both
   roles; the kex engines' tables kex_start / kex_next are the generated g_kex_start / g_kex_next.
   C09_generated_tables below shows IGNORE, DEBUG, UNIMPLEMENTED, DISCONNECT, EXT_INFO, 192 are outside. *)
Theorem C09_never_expected :
  forall mac_ok c ins st outs t,
    session mac_ok c ins = (Continue, st, outs) -> kdone st = false ->
    kexmsg t = false -> mem t (expected st) = false.
Proof.
  intros mac_ok c ins st outs t HS Hd Hk. apply session_inv in HS. destruct (HS Hd) as (_ & B & _).
  destruct (mem t (expected st)) eqn:M; [| reflexivity].
  rewrite (mem_forallb _ _ _ M B) in Hk. discriminate.
Qed.
Print Assumptions C09_never_expected.

(* what the model takes from Gen/C09_gen.v besides table lookups: run()'s early branches and the ones that
   start with _enforce_strict_kex, the initial / post-activation expectations, and that the usual
   suspects are not in the universe of expectable types, which lies within [KEXINIT, KEX_HI] *)
Theorem C09_generated_tables :
  g_early_types = [MSG_IGNORE; MSG_DISCONNECT; MSG_DEBUG] /\
  g_enforce_sites = [MSG_IGNORE; MSG_DEBUG] /\
  g_run_expect = [MSG_KEXINIT] /\ g_activate_expect = [MSG_NEWKEYS] /\
  forallb (fun t => negb (kexmsg t)) [MSG_IGNORE; MSG_UNIMPLEMENTED; MSG_DEBUG; MSG_DISCONNECT; MSG_EXT_INFO; 192] = true /\
  forallb (fun t => (MSG_KEXINIT <=? t) && (t <=? KEX_HI)) g_expect_universe = true.
Proof. vm_compute. repeat split; reflexivity. Qed.
Print Assumptions C09_generated_tables.

(* a KEXINIT carrying the peer's strict marker that is not the first packet received ends the
   connection; with MessageOrderError when it is the awaited KEXINIT (sequence numbers cannot be wrapped
   round to zero during the initial exchange: the roll-over check) *)
Theorem C09_kexinit_not_first :
  forall mac_ok c ins st outs p,
    session mac_ok c ins = (Continue, st, outs) ->
    kdone st = false -> nrecv st <> 0 -> c_adv c = true ->
    p_type p = MSG_KEXINIT -> p_marker p = 1 ->
    let o := fst (fst (step mac_ok c st p)) in
    o <> Continue /\
    (readable mac_ok st p = true -> expected st = [MSG_KEXINIT] -> o = AbortMOE).
Proof. intros mac_ok c ins st outs p HS. apply step_kexinit_not_first. exact (session_inv _ _ _ _ _ HS). Qed.
Print Assumptions C09_kexinit_not_first.

(* sequence numbers restart at zero after every NEWKEYS, in both directions, at every exchange (no
   assumption on kdone: initial exchange and re-keys alike), whenever strict kex is agreed:
   inbound after a NEWKEYS is accepted; outbound: whatever follows a NEWKEYS we send carries 0 *)
Theorem C09_seq_reset :
  forall mac_ok c st p,
  (forall st' outs, step mac_ok c st p = (Continue, st', outs) ->
     p_type p = MSG_NEWKEYS -> agreed st = true -> seq_in st' = 0 /\ ep_in st' = ep_in st + 1) /\
  (forall o st' outs i q, step mac_ok c st p = (o, st', outs) -> agreed st' = true ->
     nth_error outs i = Some q -> p_type q = MSG_NEWKEYS ->
     match nth_error outs (S i) with Some r => p_mseq r = 0 | None => seq_out st' = 0 end) /\
  (agreed st = true ->
     let '(st', q) := send1 c st MSG_NEWKEYS in
     p_type q = MSG_NEWKEYS /\ p_mseq q = seq_out st /\ seq_out st' = 0 /\ ep_out st' = ep_out st + 1).
Proof.
  intros mac_ok c st p. split; [| split].
  - intros st' outs. apply seq_reset_in.
  - intros o st' outs i q. apply seq_reset_step.
  - apply seq_reset_out.
Qed.
Print Assumptions C09_seq_reset.

(* No working-but-shifted session.  S is any transport (fed anything at all); R is any transport that is
   fed an arbitrary packet stream in which every protected packet is one S really sent (the
   man-in-the-middle may insert any unprotected packets, delete, duplicate and reorder, but cannot make a
   MAC) and that has not aborted.  If strict kex was agreed at each NEWKEYS S sent and at each NEWKEYS R
   accepted, then the protected packets R accepted are exactly S's protected packets, in order, from
   the first one, without gap or repetition.  (g_out / g_in are ghost flags recording "agreed at every
   NEWKEYS"; the length bound says S's counter did not wrap -- re-keying, C10, keeps it far below.) *)
Theorem C09_no_shift :
  forall mac_ok, mac_binds mac_ok ->
  forall cS cR insS insR oS stS outsS stR outsR,
    session mac_ok cS insS = (oS, stS, outsS) ->
    session mac_ok cR insR = (Continue, stR, outsR) ->
    (forall p, In p (recvs insR) -> p_epoch p <> 0 -> In p outsS) ->
    g_out stS = true -> g_in stR = true ->
    Z.of_nat (length outsS) < SEQ_MOD ->
    exists rest, filter enc outsS = filter enc (recvs insR) ++ rest.
Proof.
  intros mac_ok Hmac cS cR insS insR oS stS outsS stR outsR HS HR Hin GS GR Hlen.
  pose proof (stamp_enc _ _ (sender_stamps _ _ _ _ _ _ HS Hlen GS)) as HE.
  pose proof (filter_length_le enc outsS) as Hle.
  destruct (session_IR mac_ok Hmac (filter enc outsS) HE ltac:(lia) cR insR stR outsR HR)
    as [(_ & A) | (_ & Hrest & _)].
  - intros p Hp En. apply filter_In. split; [| exact En]. apply Hin; [exact Hp |].
    unfold enc in En. lia.
  - exact GR.
  - rewrite A. exists (filter enc outsS). reflexivity.
  - exact Hrest.
Qed.
Print Assumptions C09_no_shift.

(* the same for edit scripts: keep / delete each packet S sent, insert unprotected packets anywhere *)
Theorem C09_no_shift_edits :
  forall mac_ok, mac_binds mac_ok ->
  forall cS cR insS insR es oS stS outsS stR outsR,
    session mac_ok cS insS = (oS, stS, outsS) ->
    session mac_ok cR insR = (Continue, stR, outsR) ->
    recvs insR = apply_edits es outsS -> ins_plain es = true ->
    g_out stS = true -> g_in stR = true ->
    Z.of_nat (length outsS) < SEQ_MOD ->
    exists rest, filter enc outsS = filter enc (recvs insR) ++ rest.
Proof.
  intros mac_ok Hmac cS cR insS insR es oS stS outsS stR outsR HS HR Hed Hpl.
  apply (C09_no_shift mac_ok Hmac cS cR insS insR oS stS outsS stR outsR HS HR).
  rewrite Hed. intros p. apply apply_edits_in. exact Hpl.
Qed.
Print Assumptions C09_no_shift_edits.

(* the k-th packet a strict sender sends after its first NEWKEYS carries sequence number k (and, by
   mac_binds, is verified by the receiver under exactly that number) *)
Theorem C09_sender_kth :
  forall mac_ok c ins o st outs k p,
    session mac_ok c ins = (o, st, outs) ->
    Z.of_nat (length outs) < SEQ_MOD -> g_out st = true ->
    nth_error (filter (fun q => p_epoch q =? 1) outs) k = Some p -> p_mseq p = Z.of_nat k.
Proof. intros mac_ok c ins o st outs. apply sender_kth. Qed.
Print Assumptions C09_sender_kth.

(* Terrapin when strict kex is off (documented behaviour, not a violation of this property): with an
   IGNORE inserted before the server's NEWKEYS and the server's first protected packet (EXT_INFO, sent
   under sequence number 3) deleted, both sides carry on and the client reads the server's packets 4, 5
   under its own 4, 5: a working session with a packet missing. *)
Theorem C09_nonstrict_shift_exists :
  let n := scenario (cfg_of Client KDH false true false) (cfg_of Server KDH false true false)
                    terrapin_script 0 0 0%nat in
  o_c n = Continue /\ o_s n = Continue /\
  tx_s n = [20; 0; 31; 1; 21; 2; 7; 3; 6; 4; 52; 5] /\
  rx_c n = [20; 0; 31; 1; 2; 2; 21; 3; 6; 4; 52; 5].
Proof. vm_compute. repeat split; reflexivity. Qed.
Print Assumptions C09_nonstrict_shift_exists.

(* the same script against strict peers: MessageOrderError at the IGNORE *)
Theorem C09_strict_same_script_aborts :
  let n := scenario (cfg_of Client KDH true true false) (cfg_of Server KDH true true false)
                    terrapin_script 0 0 0%nat in
  o_c n = AbortMOE /\ rx_c n = [20; 0; 31; 1; 2; 2].
Proof. vm_compute. repeat split; reflexivity. Qed.
Print Assumptions C09_strict_same_script_aborts.

(* Strict mode is latched by the initial exchange.  Once agreed (st1: any reachable state with the flag
   set), whatever the transport is fed afterwards -- any number of re-keys, KEXINITs with the peer's
   kex-strict name or, like OpenSSH's re-key KEXINITs, without one -- the flag stays set, hence both
   counters are reset at every later NEWKEYS.  (The code re-evaluates the flag when a KEXINIT carries a
   kex-strict-* name, so a name of the wrong role on a re-key would clear it; such a KEXINIT can only come
   from the authenticated peer itself -- see sticky_needs_honest_marker in the proofs file.  "Not agreed
   stays not agreed" likewise holds only for peers that never add the name later.) *)
Theorem C09_strict_sticky :
  forall mac_ok c ins1 st1 outs1 ins2 o st2 outs2,
    session mac_ok c ins1 = (Continue, st1, outs1) -> agreed st1 = true ->
    peer_run mac_ok c st1 ins2 = (o, st2, outs2) ->
    (forall p, In p (recvs ins2) -> p_type p = MSG_KEXINIT -> p_marker p = 0 \/ p_marker p = 1) ->
    agreed st2 = true /\
    (forall p st3 outs3, step mac_ok c st2 p = (Continue, st3, outs3) -> p_type p = MSG_NEWKEYS ->
       seq_in st3 = 0) /\
    seq_out (fst (send1 c st2 MSG_NEWKEYS)) = 0.
Proof.
  intros mac_ok c ins1 st1 outs1 ins2 o st2 outs2 HS Ha HR Hm.
  assert (A2 : agreed st2 = true) by (apply (peer_run_sticky _ _ _ _ _ _ _ HR Ha (session_adv _ _ _ _ _ _ HS Ha) Hm)).
  split; [exact A2 |]. split.
  - intros p st3 outs3 H T. apply (seq_reset_in _ _ _ _ _ _ H T A2).
  - pose proof (seq_reset_out c st2 A2) as R. destruct (send1 c st2 MSG_NEWKEYS). apply R.
Qed.
Print Assumptions C09_strict_sticky.

(* boundary of C09_kexinit_not_first's roll-over argument, as exercised on the real code: server whose
   inbound counter stands at 2^32 - 1, IGNORE inserted ahead of the client's KEXINIT: refused *)
Theorem C09_rollover_boundary :
  let n := scenario (cfg_of Client KDH true true false) (cfg_of Server KDH true true false)
                    [(true, 0, 2)] 0 (SEQ_MOD - 1) 0%nat in
  o_s n = AbortSSH /\ rx_s n = [] /\ kdone (n_s n) = false.
Proof. vm_compute. repeat split; reflexivity. Qed.
Print Assumptions C09_rollover_boundary.

(* the borrowed premise is satisfiable *)
Example C09_mac_premise_satisfiable : mac_binds mac_ideal.
Proof. intros e s p _ H. unfold mac_ideal in H. lia. Qed.

Definition ex_pk (t m e s : Z) : pkt := {| p_type := t; p_ok := true; p_marker := m; p_epoch := e; p_mseq := s |}.
Definition ex_cC := cfg_of Client KDH true true false.
Definition ex_cS := cfg_of Server KDH true true false.

(* C09_strict_abort's hypotheses hold in a concrete state (client that has read the server's KEXINIT
   and waits for KEXECDH_REPLY), where an IGNORE indeed raises MessageOrderError *)
Example C09_strict_abort_example :
  let r := session mac_ideal ex_cC [Recv (ex_pk 20 1 0 0)] in
  let st := snd (fst r) in
  fst (fst r) = Continue /\
  agreed st = true /\ kdone st = false /\ expected st = [31] /\
  mem MSG_IGNORE (expected st) = false /\
  fst (fst (step mac_ideal ex_cC st (ex_pk MSG_IGNORE 0 0 1))) = AbortMOE.
Proof. vm_compute. repeat split; reflexivity. Qed.

(* C09_no_shift's hypotheses hold for a complete strict handshake followed by protected traffic: the
   server is fed the client's packets, the client is fed what the server sent; three protected packets
   are accepted, exactly the three sent *)
Definition ex_insS : list input :=
  map Recv [ex_pk 20 1 0 0; ex_pk 30 0 0 1; ex_pk 21 0 0 2; ex_pk 5 0 1 0; ex_pk 50 0 1 1].
Definition ex_outsS : list pkt := snd (session mac_ideal ex_cS ex_insS).
Definition ex_insR : list input :=
  map Recv (firstn 4 ex_outsS) ++ [Local [5]] ++ map Recv (skipn 4 ex_outsS).
Example C09_no_shift_example :
  let rS := session mac_ideal ex_cS ex_insS in
  let rR := session mac_ideal ex_cC ex_insR in
  fst (fst rS) = Continue /\ snd rS = ex_outsS /\ fst (fst rR) = Continue /\
  g_out (snd (fst rS)) = true /\ g_in (snd (fst rR)) = true /\
  recvs ex_insR = ex_outsS /\   (* so every protected packet fed to R is one S sent *)
  map p_type (filter enc (recvs ex_insR)) = [7; 6; 52] /\
  filter enc (recvs ex_insR) = filter enc ex_outsS.
Proof. vm_compute. repeat split; reflexivity. Qed.

(* C09_strict_sticky's situation: strict agreed, then a re-key whose KEXINIT carries no kex-strict name *)
Example C09_strict_sticky_example :
  let n := scenario (cfg_of Client KDH true true false) (cfg_of Server KDH true true true) [] 0 0 2%nat in
  o_c n = Continue /\ o_s n = Continue /\ agreed (n_c n) = true /\ agreed (n_s n) = true /\
  ep_in (n_c n) = 3 /\ seq_in (n_c n) = 2.
Proof. vm_compute. repeat split; reflexivity. Qed.
