(* C35 — signatures verify exactly when they are genuine, for every key object; verification never
   raises.  PARTIAL by nature: the signature schemes themselves are the libraries'
   (oracles lib / rsa_sign / ec_sign / ed_sign / pub_of / utf8_ok, universally quantified); what is proved
   is the wrapper logic of RSAKey / ECDSAKey / Ed25519Key after the repairs fixes/C35-1..4. *)
From PV Require Import Bytes C39 C35 C35_proofs.
Open Scope Z_scope.

(* verification answers True or False for EVERY signature message (any bytes), every key object
   (generated / from a private key file / from public bytes), provided the library's verify only
   returns or raises its documented exceptions (InvalidSignature / BadSignatureError; nacl's ValueError
   for Ed25519) *)
Theorem C35_total :
  forall utf8_ok pub_of k lib data msg,
    key_wf pub_of k -> lib_documented k lib ->
    exists b, verify_ssh_sig utf8_ok pub_of lib k data msg = Ok b.
Proof. exact total. Qed.
Print Assumptions C35_total.

(* a signature produced by a signing-capable key object k1 (any of the RSA hash algorithms incl. the
   cert names, ECDSA, Ed25519) verifies under every key object k2 of the same kind standing for the same
   public key: the same object, one loaded from the private key file, one built from the public bytes *)
Theorem C35_genuine :
  forall utf8_ok pub_of rsa_sign ec_sign ed_sign lib k1 k2 sk data alg sigmsg,
    (forall s, ascii s = true -> utf8_ok s = true) ->
    honest pub_of rsa_sign ec_sign ed_sign lib -> sig_shapes rsa_sign ec_sign ed_sign k1 ->
    key_wf pub_of k1 -> key_wf pub_of k2 -> same_kind k1 k2 ->
    key_pub pub_of k1 = Some (pub_of sk) -> key_pub pub_of k2 = Some (pub_of sk) ->
    match k1 with KRsa _ p _ => p = Some sk | KEcdsa _ s _ => s = Some sk | KEd s _ => s = Some sk end ->
    sign_ssh_data rsa_sign ec_sign ed_sign k1 data alg = Ok sigmsg ->
    verify_ssh_sig utf8_ok pub_of lib k2 data sigmsg = Ok true.
Proof. exact genuine. Qed.
Print Assumptions C35_genuine.

(* a signature whose algorithm name is not text, or not one this key accepts, is answered False without
   consulting the library at all (lib is arbitrary, it may even raise) *)
Theorem C35_wrong_name_false :
  forall utf8_ok pub_of k lib data msg,
    (let nm := fst (get_string msg 0) in utf8_ok nm = false \/ accepts k nm = false) ->
    verify_ssh_sig utf8_ok pub_of lib k data msg = Ok false.
Proof.
  intros utf8_ok pub_of k lib data msg H. cbv zeta in H. unfold verify_ssh_sig.
  destruct (verify_step_cases utf8_ok pub_of k msg) as [E|(U & A & _)].
  - rewrite E. reflexivity.
  - destruct H; congruence.
Qed.
Print Assumptions C35_wrong_name_false.

(* True is answered only if the library accepted the (parsed, for RSA zero-padded) signature on exactly
   this data under exactly the public half this key object stands for: other data / altered signature /
   different key are rejected whenever the library rejects them *)
Theorem C35_true_only_if_library_accepts :
  forall utf8_ok pub_of k lib data msg,
    verify_ssh_sig utf8_ok pub_of lib k data msg = Ok true ->
    exists a, verify_step utf8_ok pub_of k msg = Call a /\ lib a data = LAccept /\
              key_pub pub_of k = Some (arg_pub a).
Proof.
  intros utf8_ok pub_of k lib data msg. unfold verify_ssh_sig.
  destruct (verify_step_cases utf8_ok pub_of k msg) as [E|(_ & _ & [(a & E & P)|(_ & E)])];
    rewrite E; try discriminate.
  intros H. exists a. split; [reflexivity|]. split; [|exact P].
  destruct (lib a data); cbn [map_lres] in H; try discriminate; try reflexivity.
  destruct k; discriminate.
Qed.
Print Assumptions C35_true_only_if_library_accepts.

(* non-vacuity: a key loaded from a private Ed25519 file (signing half only) meets the hypotheses, signs,
   and the model verifies the result under a public-bytes key object *)
Example C35_example :
  let pub_of := fun sk : Z => sk + 1 in
  let lib := fun (a : libarg) (_ : list Z) =>
    match a with AEd p sg => if (p =? 8) && zlist_eqb sg [1; 2; 3] then LAccept else LInvalid | _ => LInvalid end in
  key_wf pub_of (KEd (Some 7) None) /\ lib_documented (KEd (Some 7) None) lib /\
  exists m, sign_ssh_data (fun _ _ _ => []) (fun _ _ => (0, 0)) (fun _ _ => [1; 2; 3]) (KEd (Some 7) None) [] None = Ok m /\
            verify_ssh_sig (fun _ => true) pub_of lib (KEd None (Some 8)) [] m = Ok true /\
            verify_ssh_sig (fun _ => true) pub_of lib (KEd (Some 7) None) [] m = Ok true /\
            verify_ssh_sig (fun _ => true) pub_of lib (KEd None (Some 9)) [] m = Ok false.
Proof.
  cbv zeta. split; [exact I|]. split.
  - intros a d. destruct a as [? ? ?|? ? ?|p sg]; auto.
    destruct ((p =? 8) && zlist_eqb sg [1; 2; 3]); auto.
  - eexists. split; [vm_compute; reflexivity|]. vm_compute. auto.
Qed.
