(* C10 - long-lived sessions are re-keyed and peers that refuse re-keying are dropped.
   All statements are for arbitrary thresholds (record cfg); `real_cfg` holds the values read
   from paramiko/packet.py by gen/c10.py. *)
From PV Require Import Bytes C10_gen C10 C10_proofs.
Open Scope Z_scope.

(* After any history of operations, right after a packet is sent (received) the re-key request
   is up whenever the sent (received) packet or byte counter is at or past its threshold
   (`>=`: reaching the threshold is enough). *)
Theorem C10_trigger :
  forall (c : cfg) (ops : list op) (o : op),
    let s' := run c init (ops ++ [o]) in
    match o with
    | Send _ => RP c <= sp s' \/ RB c <= sb s' -> need_rekey s' = true
    | Recv _ => RP c <= rp s' \/ RB c <= rb s' -> need_rekey s' = true
    | _ => True
    end.
Proof.
  intros c ops o. cbv zeta. rewrite run_app. unfold need_rekey.
  destruct o; cbn [run step fst]; trivial.
  - rewrite send_op_fields. fields. lia.
  - rewrite recv_op_fields. fields. lia.
Qed.
Print Assumptions C10_trigger.

(* Exactness: from any state whose request flag is clear, a send (receive) raises it iff it
   makes a sent (received) counter reach its threshold; a receive that raises it is delivered;
   nothing else raises it. *)
Theorem C10_trigger_exact :
  forall (c : cfg) (s : pstate) (len : Z),
    flag s = false ->
    (flag (send_op c s len) = true <-> RP c <= sp s + 1 \/ RB c <= sb s + len) /\
    (flag (fst (recv_op c s len)) = true <-> RP c <= rp s + 1 \/ RB c <= rb s + len) /\
    snd (recv_op c s len) = c_ok /\
    flag (set_out s) = false /\ flag (set_in s) = false.
Proof.
  intros c s len F. rewrite send_op_fields, recv_op_fields. fields. rewrite F. cbn [orb andb].
  split; [lia|]. split; [lia|]. split; [reflexivity|]. exact (switch_clear s F).
Qed.
Print Assumptions C10_trigger_exact.

(* The request is made once: the overflow allowance restarts when the flag goes up, and while it
   is up a send leaves the allowance alone and every received packet is charged to it. *)
Theorem C10_trigger_once :
  forall (c : cfg) (s : pstate) (len : Z),
    (flag s = false -> flag (send_op c s len) = true ->
       rpo (send_op c s len) = 0 /\ rbo (send_op c s len) = 0) /\
    (flag s = false -> flag (fst (recv_op c s len)) = true ->
       rpo (fst (recv_op c s len)) = 0 /\ rbo (fst (recv_op c s len)) = 0) /\
    (flag s = true ->
       flag (send_op c s len) = true /\ rpo (send_op c s len) = rpo s /\ rbo (send_op c s len) = rbo s /\
       flag (fst (recv_op c s len)) = true /\
       rpo (fst (recv_op c s len)) = rpo s + 1 /\ rbo (fst (recv_op c s len)) = rbo s + len).
Proof.
  intros c s len. rewrite send_op_fields, recv_op_fields. fields.
  split; [|split]; intros F; rewrite F; cbn [orb].
  - intros ->. split; reflexivity.
  - intros ->. split; reflexivity.
  - repeat split; reflexivity.
Qed.
Print Assumptions C10_trigger_once.

(* Run loop: in a live transport whose packetizer asks for new keys while no exchange is in
   progress, the next iteration emits exactly one KEXINIT, whatever it then reads; the pending
   read does not wait for the peer (NeedRekeyException), and after an idle iteration the
   transport is in key exchange and alive. *)
Theorem C10_kexinit_sent :
  forall (c : cfg) (klen : Z) (t : tstate) (r : rd),
    alive t = true -> flag (pk t) = true -> in_kex t = false ->
    kexinits (titer c klen t r) = kexinits t + 1 /\
    idle_returns t = true /\
    (r = RIdle -> in_kex (titer c klen t r) = true /\ alive (titer c klen t r) = true).
Proof.
  intros c klen t r A F K. unfold idle_returns. split; [|split; [exact F|]].
  - (* every branch of the iteration keeps the count that the loop head leaves; the peer's KEXINIT
       is not answered a second time because local_kex_init is set by then *)
    unfold titer. rewrite A, F, K. cbn [negb andb].
    destruct r; try reflexivity; cbn [rd_len];
      destruct (recv_op c _ _) as [p2 code]; destruct (code =? c_ssh); reflexivity.
  - intros ->. unfold titer, send_kex_init. rewrite A, F, K. split; reflexivity.
Qed.
Print Assumptions C10_kexinit_sent.

(* ... in particular when the crossing is caused by a packet just read or by a send of another
   thread: the following iteration sends KEXINIT. *)
Theorem C10_trigger_then_kexinit :
  forall (c : cfg) (klen : Z) (t : tstate) (e : tev) (r : rd),
    alive t = true -> in_kex t = false -> flag (pk t) = false ->
    (match e with TSend _ | TIter (RData _) => True | _ => False end) ->
    flag (pk (tstep c klen t e)) = true ->
    kexinits (titer c klen (tstep c klen t e) r) = kexinits t + 1.
Proof.
  intros c klen t e r A K F E T.
  (* the event leaves the transport alive, out of key exchange and with the same count *)
  assert (X : let t' := tstep c klen t e in
              alive t' = true /\ in_kex t' = false /\ kexinits t' = kexinits t).
  { destruct e as [[| len | | |]|len]; try contradiction; cbn [tstep].
    - rewrite titer_data, start_kex_skip by assumption. cbv zeta.
      rewrite recv_op_fields, F. fields. auto.
    - unfold tsend. rewrite A. fields. auto. }
  destruct X as (A' & K' & <-). apply C10_kexinit_sent; assumption.
Qed.
Print Assumptions C10_trigger_then_kexinit.

(* After any history, switching both directions to new keys (in either order) leaves all six
   counters at zero and the request flag clear. *)
Theorem C10_reset :
  forall (c : cfg) (ops : list op),
    let s := run c init ops in
    (counters_zero (run c s [SetOut; SetIn]) /\ need_rekey (run c s [SetOut; SetIn]) = false) /\
    (counters_zero (run c s [SetIn; SetOut]) /\ need_rekey (run c s [SetIn; SetOut]) = false).
Proof.
  intros c ops. apply switch_both, run_ic_ok. left. reflexivity.
Qed.
Print Assumptions C10_reset.

(* With traffic between the two switches (between two exchanges init_count is 0): the direction
   switched last is at zero, the other one has counted exactly the traffic under its new keys,
   and the flag is clear. *)
Theorem C10_reset_with_traffic :
  forall (c : cfg) (s : pstate) (mid : list op),
    ic s = 0 -> forallb (fun o => negb (is_set o)) mid = true ->
    (let s' := run c s (SetOut :: mid ++ [SetIn]) in
     rb s' = 0 /\ rp s' = 0 /\ rbo s' = 0 /\ rpo s' = 0 /\ need_rekey s' = false /\ ic s' = 0 /\
     sp s' = nsend mid /\ sb s' = bsend mid) /\
    (let s' := run c s (SetIn :: mid ++ [SetOut]) in
     sb s' = 0 /\ sp s' = 0 /\ need_rekey s' = false /\ ic s' = 0 /\
     rp s' = nrecv mid /\ rb s' = brecv mid).
Proof.
  intros c s mid Hic Hm.
  assert (H : ic_ok s) by (left; exact Hic).
  split; cbv zeta; cbn [run step fst]; rewrite run_app; cbn [run step fst]; unfold need_rekey.
  - destruct (run_noset c mid (set_out s) Hm) as (I1 & I2 & I3 & _).
    rewrite set_out_fields, Hic in I1, I2, I3 |- * by exact H. cbn [Z.eqb ic sp sb] in I1, I2, I3 |- *.
    rewrite set_in_fields, I1 by (right; left; exact I1). fields. cbn [Z.eqb].
    repeat split; assumption.
  - destruct (run_noset c mid (set_in s) Hm) as (I1 & _ & _ & I4 & I5).
    rewrite set_in_fields, Hic in I1, I4, I5 |- * by exact H. cbn [Z.eqb ic rp rb] in I1, I4, I5 |- *.
    rewrite set_out_fields, I1 by (right; right; exact I1). fields. cbn [Z.eqb].
    repeat split; assumption.
Qed.
Print Assumptions C10_reset_with_traffic.

(* init_count never leaves {0,1,2} *)
Theorem C10_init_count_range : forall (c : cfg) (ops : list op), ic_ok (run c init ops).
Proof. intros c ops. apply run_ic_ok. left. reflexivity. Qed.
Print Assumptions C10_init_count_range.

(* Drop: with the request up and the inbound keys not yet switched, any operations that do not
   switch the inbound keys raise SSHException at some read iff the packets (bytes) received
   since the request reach the overflow allowance. *)
Theorem C10_drop :
  forall (c : cfg) (ops : list op) (s : pstate),
    flag s = true -> (ic s = 0 \/ ic s = 1) ->
    forallb (fun o => negb (is_set_in o)) ops = true ->
    forallb op_len_ok ops = true ->
    rpo s < OP c -> rbo s < OB c ->
    (dropped c s ops = true <-> OP c <= rpo s + nrecv ops \/ OB c <= rbo s + brecv ops).
Proof.
  intros c ops. unfold dropped.
  induction ops as [|o r IH]; intros s F I NS L Hp Hb; cbn [codes existsb nrecv brecv].
  - split; [discriminate|lia].
  - cbn [forallb] in NS, L. apply andb_true_iff in NS as [NS1 NS2]. apply andb_true_iff in L as [L1 L2].
    destruct (counts_nonneg r) as (N1 & _ & N2). destruct (N2 L2) as [N3 _].
    destruct o; try discriminate NS1; cbn [step fst snd].
    + rewrite send_op_fields, F. change (c_ok =? c_ssh) with false. cbn [orb].
      rewrite IH by (fields; assumption). fields. tauto.
    + rewrite recv_op_fields, F. fields.
      destruct ((OP c <=? rpo s + 1) || (OB c <=? rbo s + len)) eqn:E.
      * split; [intros _; lia|reflexivity].
      * change (c_ok =? c_ssh) with false. cbn [orb op_len_ok] in L1 |- *.
        rewrite IH by (fields; first [assumption|reflexivity|lia]). fields. lia.
    + assert (E : ic s =? 2 = false) by lia.
      rewrite set_out_fields, E by (unfold ic_ok; lia). change (c_ok =? c_ssh) with false. cbn [orb].
      rewrite IH by (fields; auto). fields. tauto.
    + unfold idle_op. rewrite F. change (c_needrekey =? c_ssh) with false. cbn [orb].
      rewrite IH by assumption. tauto.
Qed.
Print Assumptions C10_drop.

(* ... counted from the operation that raised the request (that packet itself is free) *)
Theorem C10_drop_after_trigger :
  forall (c : cfg) (s : pstate) (o : op) (ops : list op),
    cfg_pos c -> flag s = false -> (ic s = 0 \/ ic s = 1) ->
    flag (fst (step c s o)) = true ->
    forallb (fun o => negb (is_set_in o)) ops = true ->
    forallb op_len_ok ops = true ->
    (dropped c (fst (step c s o)) ops = true <-> OP c <= nrecv ops \/ OB c <= brecv ops).
Proof.
  intros c s o ops (_ & _ & P3 & P4) F I T NS L.
  (* the operation is a send or a read, it leaves the allowance untouched and init_count alone *)
  assert (X : let s' := fst (step c s o) in rpo s' = 0 /\ rbo s' = 0 /\ ic s' = ic s).
  { destruct (switch_clear s F) as [X1 X2]. destruct o; cbn [step fst] in *; try congruence.
    - destruct (C10_trigger_once c s len) as (O & _). destruct (O F T) as [Z1 Z2].
      rewrite send_op_fields in *. auto.
    - destruct (C10_trigger_once c s len) as (_ & O & _). destruct (O F T) as [Z1 Z2].
      rewrite recv_op_fields in *. auto. }
  destruct X as (Z1 & Z2 & Z3).
  rewrite C10_drop; rewrite ?Z1, ?Z2, ?Z3; first [assumption|lia].
Qed.
Print Assumptions C10_drop_after_trigger.

(* Transport level: a peer that answers the request with nothing but ordinary packets (while we
   send, idle, or read) is disconnected exactly when the allowance is used up. *)
Theorem C10_refuser_dropped :
  forall (c : cfg) (klen : Z) (es : list tev) (t : tstate),
    alive t = true -> flag (pk t) = true -> (ic (pk t) = 0 \/ ic (pk t) = 1) ->
    forallb is_plain es = true ->
    rpo (pk t) < OP c -> rbo (pk t) < OB c ->
    (alive (trun c klen t es) = false <->
     OP c <= rpo (pk t) + ndata es \/ OB c <= rbo (pk t) + bdata es).
Proof.
  intros c klen es.
  induction es as [|e r IH]; intros t A F I PL Hp Hb; cbn [trun ndata bdata].
  - rewrite A. split; [discriminate|lia].
  - cbn [forallb] in PL. apply andb_true_iff in PL as [P1 P2].
    pose proof (ndata_nonneg r) as N1. pose proof (bdata_nonneg r P2) as N2.
    (* the loop head may send our KEXINIT; that does not touch the allowance *)
    destruct (start_kex_up c klen t F) as (F1 & _ & I1 & Hp1 & Hb1).
    pose proof (start_kex_alive c klen t) as A1.
    destruct e as [[| len | | |]|len]; try discriminate P1; cbn [tstep].
    + rewrite titer_idle by exact A.
      rewrite IH by (rewrite ?A1, ?I1, ?Hp1, ?Hb1; assumption). rewrite Hp1, Hb1. reflexivity.
    + rewrite titer_data by exact A. cbv zeta.
      rewrite recv_op_fields, F1, Hp1, Hb1. fields.
      destruct ((OP c <=? rpo (pk t) + 1) || (OB c <=? rbo (pk t) + len)) eqn:E.
      * rewrite trun_dead by reflexivity. split; [intros _; lia|reflexivity].
      * change (c_ok =? c_ssh) with false. cbn [negb is_plain] in P1 |- *.
        rewrite IH by (fields; rewrite ?I1; first [assumption|reflexivity|lia]). fields. lia.
    + unfold tsend. rewrite A, send_op_fields, F.
      rewrite IH by (fields; first [assumption|reflexivity]). fields. tauto.
Qed.
Print Assumptions C10_refuser_dropped.

(* Any number of crossings: a session made of any number of rounds - arbitrary traffic that
   crosses a threshold without exhausting the allowance (round_ok), one more loop iteration, and
   the peer's three key-exchange messages - emits exactly one KEXINIT per round and returns
   every time to the initial accounting state. *)
Theorem C10_repeat :
  forall (c : cfg) (klen : Z) (rounds : list (list tev * (Z * Z * Z * Z))) (k : Z),
    Forall (round_ok c klen) rounds ->
    trun c klen (tfresh k) (flat_map round_events rounds) = tfresh (k + Z.of_nat (length rounds)).
Proof.
  intros c klen rounds. induction rounds as [|x r IH]; intros k H.
  - cbn. f_equal. lia.
  - inversion H as [|? ? Hx Hr]; subst. cbn [flat_map]. rewrite trun_app.
    rewrite (one_round c klen x k Hx), IH by assumption.
    f_equal. cbn [length]. lia.
Qed.
Print Assumptions C10_repeat.

(* the thresholds read from the source are positive, so every theorem above applies to them *)
Theorem C10_real_thresholds : cfg_pos real_cfg.
Proof. repeat split; reflexivity. Qed.
Print Assumptions C10_real_thresholds.

(* small thresholds for the examples below, which show that the hypotheses above can be met *)
Definition ex_cfg : cfg := mkCfg 5 1000 6 400.

(* a send-heavy round and a receive-heavy round both satisfy round_ok *)
Example C10_round_ok_example :
  round_ok ex_cfg 200 ([TSend 10; TSend 10; TIter RIdle; TSend 10; TSend 10; TSend 10], (100, 50, 16, 16)) /\
  round_ok ex_cfg 200 ([TIter (RData 300); TIter (RData 300); TIter (RData 300); TIter (RData 300);
                        TIter (RData 40)], (100, 50, 16, 16)).
Proof. split; vm_compute; repeat split; congruence. Qed.

(* a refuser: the request goes up at the 5th packet, the 6th packet after it is refused *)
Example C10_drop_example :
  let ops := [Recv 8; Recv 8; Recv 8; Recv 8; Recv 8; Idle; Recv 8; Recv 8; Send 8; Recv 8; Recv 8; Recv 8] in
  codes ex_cfg init ops = [0; 0; 0; 0; 0; 50; 0; 0; 0; 0; 0; 0] /\
  codes ex_cfg init (ops ++ [Recv 8]) = [0; 0; 0; 0; 0; 50; 0; 0; 0; 0; 0; 0; 1].
Proof. split; reflexivity. Qed.

(* Two asymmetries of the code, stated on the model. *)
(* The flag is cleared by the second of the two cipher switches even if the direction switched
   first has crossed its threshold again in between: a reachable state with a counter past the
   threshold and no request.  The request is raised again by the next packet in that direction
   (C10_trigger), so the keys are over-used by at most the packets sent in that window. *)
Example C10_flag_clear_above_threshold_exists :
  exists ops, let s := run ex_cfg init ops in need_rekey s = false /\ RP ex_cfg <= sp s /\
              need_rekey (run ex_cfg s [Send 8]) = true.
Proof.
  exists [SetOut; SetIn; Send 8; Send 8; Send 8; Send 8; Send 8; SetOut;
          Send 8; Send 8; Send 8; Send 8; Send 8; SetIn].
  vm_compute. repeat split; congruence.
Qed.

(* in_kex is released by _activate_outbound when the exchange was started by the peer; a crossing
   between our NEWKEYS and the peer's NEWKEYS therefore makes the loop emit a KEXINIT inside the
   running exchange, and the answer to it triggers one more (3 KEXINITs, 1 + 1 exchanges). *)
Example C10_kexinit_inside_exchange_exists :
  kexinits (trun ex_cfg 200 (tfresh 0)
    [TIter (RKexInit 100); TIter (RKexDone 50 16); TIter (RData 900); TIter (RNewKeys 16);
     TIter (RKexInit 100)]) = 3.
Proof. reflexivity. Qed.
