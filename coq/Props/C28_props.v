(* C28 — prefetched and vectored SFTP reads return exactly the file's bytes.
   The model (Model/C28.v) mirrors sftp_file.py as repaired by
   fixes/C28-prefetch-status-extent-and-empty-start.diff.  Environment = prefetch threads + wire +
   server, as labelled steps (send / register extent / deliver with a short-read choice) taken in
   any order the schedule oracles say. *)
From PV Require Import Bytes C28 C28_gen C28_proofs.
Open Scope Z_scope.

(* every buffered entry (o |-> d) equals the file's bytes at o, after any sequence of reader
   operations (read / seek / prefetch / readv) and environment steps, for every response arrival
   order and every short-read behaviour (k >= 1 per response) *)
Theorem C28_buffer_inv :
  forall (file : list Z) (acts : list action) (s s' : state),
    good file s -> Forall action_ok acts -> do_actions file s acts = Some s' ->
    good file s' /\ forall o d, In (o, d) (data s') -> d = slice file o (zlen d).
Proof.
  intros file acts s s' Hg Ha Hd. destruct (do_actions_good file acts s s' Hg Ha Hd) as [Hg' _].
  split; [exact Hg'|]. intros o d Hin. apply valid_is_slice.
  destruct Hg' as ((Hb & _) & _). exact (proj1 (Forall_forall _ _) Hb _ Hin).
Qed.
Print Assumptions C28_buffer_inv.

(* SFTPFile._read at realpos: a non-empty prefix of file[realpos, ...) of at most `size` bytes, or EOF
   only at or past the end of the file; never an exception, never "no data" *)
Theorem C28_read_raw :
  forall file maxreq o s size s1 r,
    good file s -> orc_ok o -> 1 <= size -> 1 <= maxreq ->
    sread file maxreq o s size = (s1, r) ->
    match r with
    | RdData d => d <> [] /\ zlen d <= size /\ d = slice file (realpos s) (zlen d)
    | RdEof => zlen file <= realpos s
    | RdBlocked => True
    | RdNone | RdRaise => False
    end.
Proof.
  intros file maxreq o s size s1 r Hg Ho Hs Hm E.
  destruct (sread_ok file maxreq o s size s1 r Hg Ho Hs Hm E) as (_ & _ & Hr).
  destruct r; auto. destruct Hr as (A & B & C). split; [exact A|]. split; [lia|]. now apply valid_is_slice.
Qed.
Print Assumptions C28_read_raw.

(* BufferedFile.read(size) over it: exactly file[pos, pos+size) truncated at EOF, and the position
   advances by what was returned (OBlocked = the schedule oracle ran out while still waiting) *)
Theorem C28_read :
  forall file maxreq bufsize orcs s size s1 out,
    good file s -> Forall orc_ok orcs -> 1 <= maxreq -> 0 <= size ->
    bf_read file maxreq bufsize orcs s size = (s1, out) ->
    good file s1 /\
    (out = OBlocked \/
     (out = OData (slice file (pos s) size) /\ pos s1 = pos s + zlen (slice file (pos s) size))).
Proof.
  intros file maxreq bufsize orcs s size s1 out Hg Ho Hm Hs E.
  destruct (bf_read_ok file maxreq bufsize orcs s size s1 out Hg Ho Hm Hs E) as [[G _] H]. auto.
Qed.
Print Assumptions C28_read.

(* readv: for each requested (offset, length) exactly file[offset, offset+length) truncated at EOF,
   for overlapping / unordered / beyond-EOF chunk lists, whatever is already buffered or requested *)
Theorem C28_readv :
  forall file maxreq bufsize orcss s chunks cap s1 outs,
    good file s -> Forall (Forall orc_ok) orcss -> 1 <= maxreq ->
    Forall (fun c => 0 <= fst c /\ 0 <= snd c) chunks ->
    readv file maxreq bufsize orcss s chunks cap = Some (s1, outs) ->
    good file s1 /\
    Forall2 (fun c out => out = OData (slice file (fst c) (snd c)) \/ out = OBlocked) chunks outs.
Proof.
  intros file maxreq bufsize orcss s chunks cap s1 outs Hg Ho Hm Hc E.
  destruct (readv_ok file maxreq bufsize orcss s chunks cap s1 outs Hg Ho Hm Hc E) as (G & _ & F). auto.
Qed.
Print Assumptions C28_readv.

(* readv never asks for more than MAX_REQUEST_SIZE bytes or for an empty range *)
Theorem C28_readv_requests_bounded :
  forall maxreq d e cs rc,
    1 <= maxreq -> Forall (fun c => 0 <= fst c) cs -> readv_plan maxreq d e cs = Some rc ->
    Forall (fun c => 0 <= fst c /\ 1 <= snd c <= maxreq) rc.
Proof. exact readv_plan_bounded. Qed.
Print Assumptions C28_readv_requests_bounded.

(* C28_terminates: deadlock freedom of the reader / prefetch threads / wire interleaving.
   For every state reachable from a freshly opened file by any reader operations (read / seek /
   prefetch / readv with cap = None (0) or >= 1) and any environment steps:
   (a) while anything is outstanding (a chunk not yet requested, a request not yet registered, a reply
       not yet consumed) some environment step is enabled: the oldest reply can be dispatched (its
       extent is registered), or the registration that _async_response spins on can happen, or a
       send is enabled (a capped prefetch thread is not starved); the step leads to a reachable state
       again and consumes the measure;
   (b) every environment step, in whatever order, consumes the measure: at most `measure s` happen;
   (c) with nothing outstanding the _read_prefetch wait loop does not wait.
   Hence every maximal run of the environment is finite and ends where the reader proceeds.
   (That the real threads and the real wire take only such steps -- in particular that a reply is not
   consumed before its extent is registered, which the code ensures by spinning -- is tied by the
   direct drive and the delayed-registration runs of the harness, and by C28_source_shape.) *)
Theorem C28_terminates :
  forall file acts n s,
    Forall action_ok acts -> Forall action_caps_ok acts ->
    do_actions file (init_state n) acts = Some s ->
    (work s -> forall k, 1 <= k ->
       exists l s', env_step file s l = Some s' /\ lab_ok l /\ (measure s' < measure s)%nat /\
                    good file s' /\ live_ok s') /\
    (forall l s', env_step file s l = Some s' -> (measure s' < measure s)%nat) /\
    (prefetching s = true -> ~ work s -> forall sched, snd (wait_loop file sched s) <> WBlocked).
Proof. exact terminates. Qed.
Print Assumptions C28_terminates.

(* every answered request -- data or status -- releases its extent and sets _prefetch_done when it was
   the last one; once _prefetch_done is set the loop never blocks; _start_prefetch clears
   _prefetch_done only together with new work *)
Theorem C28_extent_release :
  (forall d e dn sv num r d' e' dn' sv',
      async_response d e dn sv num r = Some (d', e', dn', sv') ->
      dget e' num = None /\ (e' = [] -> dn' = true) /\ (length e' <= length e)%nat) /\
  (forall file sched s, pdone s = true -> snd (wait_loop file sched s) <> WBlocked) /\
  (forall s cs cap, pdone (start_prefetch s cs cap) = false ->
                    pdone s = false \/ unsent (start_prefetch s cs cap) <> []).
Proof.
  split; [|split].
  - intros d e dn sv num r d' e' dn' sv'. unfold async_response.
    destruct (dget e num) as [[off len]|]; [|discriminate]. intros [= <- <- <- <-].
    split; [|split].
    + rewrite dget_del, Z.eqb_refl. reflexivity.
    + intros ->. reflexivity.
    + induction e as [|[k v] t IH]; cbn; [lia|]. destruct (k =? num); cbn; lia.
  - exact wait_done_never_blocks.
  - intros s cs cap. unfold start_prefetch. destruct cs as [|c r]; cbn; [now left|].
    intros _. right. intros H. apply app_eq_nil in H as [_ H]. discriminate.
Qed.
Print Assumptions C28_extent_release.

(* the shapes and the constant the model takes from sftp_file.py, as found in the source by gen/c28.py
   on this run (Gen/C28_gen.v): _async_response spins until the extent is registered, releases the
   extent of every answered request, stores data at the extent's offset, sets _prefetch_done when no
   extent is left, does not save an EOF status; _start_prefetch ignores an empty list and sets both
   flags; _prefetch_thread records (offset, length) under the request's number and stores nothing else;
   _prefetch_done / _prefetching are written only by __init__, _read_prefetch, _start_prefetch and (under
   _prefetch_lock) _async_response; _read_prefetch returns None whenever the position is not buffered;
   prefetch() keeps no state of its own *)
Theorem C28_source_shape :
  src_async_spins_until_registered = true /\ src_async_releases_extent = true /\
  src_async_stores_at_extent_offset = true /\ src_async_done_when_no_extent_left = true /\
  src_async_eof_status_not_saved = true /\ src_start_prefetch_ignores_empty = true /\
  src_start_prefetch_sets_flags = true /\ src_thread_registers_request_extent = true /\
  src_prefetch_flag_writers_pinned = true /\ src_thread_only_records_extents_under_lock = true /\
  src_read_prefetch_none_when_unbuffered = true /\ src_prefetch_keeps_no_state = true.
Proof. repeat split; reflexivity. Qed.
Print Assumptions C28_source_shape.

(* the MAX_REQUEST_SIZE found in the source is >= 1: C28_readv at the real constant *)
Theorem C28_readv_at_source_constant :
  forall file bufsize orcss s chunks cap s1 outs,
    good file s -> Forall (Forall orc_ok) orcss ->
    Forall (fun c => 0 <= fst c /\ 0 <= snd c) chunks ->
    readv file src_max_request_size bufsize orcss s chunks cap = Some (s1, outs) ->
    good file s1 /\
    Forall2 (fun c out => out = OData (slice file (fst c) (snd c)) \/ out = OBlocked) chunks outs.
Proof.
  intros file bufsize orcss s chunks cap s1 outs Hg Ho. apply C28_readv; auto. vm_compute. discriminate.
Qed.
Print Assumptions C28_readv_at_source_constant.

(* the code before the repair (async_response_v0: a STATUS response keeps its extent): an EOF status
   leaves _prefetch_done false with nothing outstanding, and the reader then waits forever under
   every schedule; the repaired _async_response sets _prefetch_done in the same situation *)
Theorem C28_unrepaired_waits_forever_refuted :
  async_response_v0 [] [(1, (600, 10))] false false 1 REof = Some ([], [(1, (600, 10))], false, true) /\
  async_response [] [(1, (600, 10))] false false 1 REof = Some ([], [], true, false) /\
  exists s, forall file sched, snd (wait_loop file sched s) = WBlocked.
Proof.
  split; [reflexivity|]. split; [reflexivity|]. exists stuck_v0. intros file sched.
  induction sched as [|l r IH]; [reflexivity|].
  cbn [wait_loop]. change (data_in_buffers (data stuck_v0) (realpos stuck_v0)) with (@None Z).
  change (pdone stuck_v0) with false. cbv iota. rewrite env_idle by reflexivity. exact IH.
Qed.
Print Assumptions C28_unrepaired_waits_forever_refuted.

(* non-vacuity: the initial state of a freshly opened file is good; a concrete healthy oracle; and a
   concrete run (40-byte file, MAX 16: readv of overlapping / beyond-EOF chunks with short reads
   delivered out of order) *)
Example C28_example_init : forall file n, good file (init_state n).
Proof. intros. apply good_init. Qed.

Example C28_example_oracle :
  orc_ok (mkOracle [LSend 0; LReg 0; LDeliver 0 3 false] [LDeliver 1 1 false] 2 false).
Proof. repeat constructor; cbn; lia. Qed.

Example C28_example_run :
  let file := [1;2;3;4;5;6;7;8;9;10;11;12;13;14;15;16;17;18;19;20;21;22;23;24;25;26;27;28;29;30;31;32;33;34;35;36;37;38;39;40] in
  let w := [LSend 0; LReg 0; LSend 0; LReg 0; LSend 0; LReg 0; LDeliver 1 5 false; LDeliver 0 3 false; LDeliver 0 9 false] in
  let o := mkOracle w [] 4 false in
  option_map snd (readv file 16 0 [[o; o; o; o; o; o; o; o; o; o; o; o]; [o; o; o; o; o; o; o; o; o; o; o; o]; [o]] (init_state 1) [(10, 25); (30, 20); (45, 5)] 0)
  = Some [OData (slice file 10 25); OData (slice file 30 20); OData []].
Proof. vm_compute. reflexivity. Qed.

(* a reachable state with work outstanding (prefetch of a 40-byte file, MAX 16, cap 1) *)
Example C28_example_work :
  exists s, do_actions [] (init_state 1) [APrefetch 16 40 1] = Some s /\ work s /\ prefetching s = true.
Proof. eexists. split; [reflexivity|]. split; [left; discriminate|reflexivity]. Qed.
