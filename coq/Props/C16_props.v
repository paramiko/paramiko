(* C16 -- a server pins one username per connection and caps failed attempts.
   Model: coq/Model/C14.v (shared), coq/Model/C16.v. *)
From PV Require Import Bytes C39 C14 C16 C14_proofs C16_proofs.
Open Scope Z_scope.

(* once a username is pinned, a request for a different one (whatever method, body, oracle, and
   whether or not a gssapi exchange is in progress) sends DISCONNECT(no more auth methods), closes
   the transport, consults no callback at all and authenticates nobody *)
Theorem C16_username_pinned :
  forall sig_ok sid st u0 u s b e st' outs,
    a_active st = true -> a_authed st = false -> a_user st = Some u0 ->
    beq u0 u = false -> beq s s_connection = true ->
    auth_step sig_ok sid st (Msg50 u s b) e = (st', outs) ->
    outs = [ODisconnect 14; OClose] /\ a_active st' = false /\ a_authed st' = false /\
    a_user st' = Some u0.
Proof.
  intros sig_ok sid st u0 u s b e st' outs Hact Hau Hu Hne Hs H.
  rewrite auth_step_request in H by exact Hact. unfold h_request in H.
  cbn [a_authed a_user set_gss] in H. rewrite Hau, Hs, Hu, Hne in H.
  injection H as <- <-. cbn. auto.
Qed.
Print Assumptions C16_username_pinned.

(* a service other than ssh-connection does the same with DISCONNECT(service not available) *)
Theorem C16_service :
  forall sig_ok sid st u s b e st' outs,
    a_active st = true -> a_authed st = false -> beq s s_connection = false ->
    auth_step sig_ok sid st (Msg50 u s b) e = (st', outs) ->
    outs = [ODisconnect 7; OClose] /\ a_active st' = false /\ a_authed st' = false.
Proof.
  intros sig_ok sid st u s b e st' outs Hact Hau Hs H.
  rewrite auth_step_request in H by exact Hact. unfold h_request in H.
  cbn [a_authed set_gss] in H. rewrite Hau, Hs in H.
  injection H as <- <-. cbn. auto.
Qed.
Print Assumptions C16_service.

(* a closed transport processes nothing: no callback, no message, no state change, ever *)
Theorem C16_closed_is_final :
  forall sig_ok sid steps st, a_active st = false -> run sig_ok sid st steps = (st, []).
Proof. intros sig_ok sid steps st. apply closed_run. Qed.
Print Assumptions C16_closed_is_final.

(* the failure counter equals the number of USERAUTH_FAILURE(partial = false) messages sent *)
Theorem C16_counter_is_wire_failures :
  forall sig_ok sid steps st' outs,
    run sig_ok sid init steps = (st', outs) -> a_fails st' = counted_failures outs.
Proof.
  intros sig_ok sid steps st' outs H.
  destruct (run_counts sig_ok sid steps init) as [A _]. rewrite H in A. exact A.
Qed.
Print Assumptions C16_counter_is_wire_failures.

(* for every request list: once ten counted failures are on the wire the transport is closed, and
   whatever the client sends afterwards produces no output at all (no callback is invoked, no
   credentials are evaluated) -- the whole connection equals its prefix *)
Theorem C16_ten_failures :
  forall sig_ok sid pre post st1 o1,
    run sig_ok sid init pre = (st1, o1) ->
    fail_limit <= counted_failures o1 ->
    a_active st1 = false /\
    run sig_ok sid st1 post = (st1, []) /\
    run sig_ok sid init (pre ++ post) = (st1, o1).
Proof.
  intros sig_ok sid pre post st1 o1 H Hc.
  destruct (run_counts sig_ok sid pre init) as [A I]. rewrite H in A, I. cbn [fst snd] in A, I.
  assert (Hcl : a_active st1 = false).
  { destruct I as [I|I]; [left; reflexivity | change (a_fails init) with 0 in A; lia | exact I]. }
  split; [exact Hcl|]. split; [apply closed_run, Hcl|].
  rewrite run_app, H. unfold then_do. rewrite closed_run by exact Hcl.
  rewrite app_nil_r. reflexivity.
Qed.
Print Assumptions C16_ten_failures.

(* the limit is not lower than ten: with fewer than nine failures so far a failed password
   attempt leaves the connection open *)
Theorem C16_not_before_ten :
  forall sig_ok sid st u e st' outs,
    a_active st = true -> a_authed st = false -> a_gss st = false -> a_fails st < fail_limit - 1 ->
    (match a_user st with Some u0 => beq u0 u = true | None => True end) ->
    auth_step sig_ok sid st (Msg50 u s_connection (BPassword false)) e = (st', outs) ->
    a_active st' = true.
Proof.
  intros sig_ok sid st u e st' outs Hact Hau Hg Hf Hu H.
  rewrite auth_step_request in H by exact Hact. unfold h_request in H.
  cbn [a_authed a_user set_gss] in H. rewrite Hau in H.
  change (beq s_connection s_connection) with true in H.
  replace (match a_user st with Some u0 => negb (beq u0 u) | None => false end) with false in H
    by (destruct (a_user st); [rewrite Hu|]; reflexivity).
  apply (f_equal fst) in H. cbn [negb] in H. rewrite !then_do_fst in H. cbn [fst] in H.
  rewrite <- H. apply send_auth_result_open; assumption.
Qed.
Print Assumptions C16_not_before_ten.

(* the constants the statements above use are the ones in the source today (regenerated each run) *)
Theorem C16_generated_constants : fail_limit = 10 /\ disc_svc = 7 /\ disc_nomore = 14.
Proof. vm_compute. repeat split. Qed.
Print Assumptions C16_generated_constants.

(* non-vacuity: ten failed passwords close the connection, the eleventh is not evaluated *)
Definition failpw : amsg * env :=
  (Msg50 [97] s_connection (BPassword false), MkEnv RFailed false false [] true 1 true false false).
Example C16_example_ten :
  let '(st, outs) := run toy_sig_ok [] init (repeat failpw 12) in
  counted_failures outs = 10 /\ a_active st = false /\
  Z.of_nat (length (filter is_cb outs)) = 10.
Proof. vm_compute. repeat split. Qed.
Example C16_example_pinned :
  let '(st1, _) := auth_step toy_sig_ok [] init (fst failpw) (snd failpw) in
  a_user st1 = Some [97] /\ beq [97] [98] = false /\ a_active st1 = true.
Proof. vm_compute. repeat split. Qed.
