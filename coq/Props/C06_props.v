(* C06 -- key exchange agrees on a secret and authenticates the server's host key.
   hash / sign / verify / the EC scalar multiplications are library primitives: they are universally
   quantified and the theorems carry their idealised properties as explicit premises. *)
From PV Require Import Bytes C39 C06_gen C06 C06_proofs.
Open Scope Z_scope.

(* Diffie-Hellman: (g^x mod p)^y mod p = (g^y mod p)^x mod p, for every modulus p > 0 *)
Theorem C06_dh_agree :
  forall g x y p, 0 < p -> 0 <= x -> 0 <= y -> (g ^ x mod p) ^ y mod p = (g ^ y mod p) ^ x mod p.
Proof. exact dh_agree. Qed.
Print Assumptions C06_dh_agree.

(* the same transcript gives the same hash input on both sides: for every engine the client handler
   and the server handler contain the same ordered hm.add... calls (generated layout tables), and
   the server writes the reply fields in the order and kinds the client reads them *)
Theorem C06_same_H :
  forall f t, exchange_hash_input f Client t = exchange_hash_input f Server t /\
              layout f Client = layout f Server /\ reply_sent f = reply_read f.
Proof. intros f t. split; [apply same_H | split; [apply layout_same | apply reply_wire_same]]. Qed.
Print Assumptions C06_same_H.

(* the transcript encoding is injective: two transcripts with the same hash input agree on every
   field the engine hashes -- in particular V_C, V_S, I_C, I_S, K_S, K and both public values
   (e, f as mpints for group1/14/16 and gex; Q_C, Q_S as strings for ECDH / X25519) *)
Theorem C06_hash_input_injective :
  forall f r t1 t2 bs,
    t_old t1 = t_old t2 -> t_wf f r t1 = true -> t_wf f r t2 = true ->
    exchange_hash_input f r t1 = Ok bs -> exchange_hash_input f r t2 = Ok bs ->
    (forall g e, In (g, e) (layout f r) -> guard_on (t_old t1) g = true -> entry_field t1 e = entry_field t2 e) /\
    t_vc t1 = t_vc t2 /\ t_vs t1 = t_vs t2 /\ t_ic t1 = t_ic t2 /\ t_is t1 = t_is t2 /\
    t_ks t1 = t_ks t2 /\ t_k t1 = t_k t2 /\
    entry_field t1 (fst (pub_entries f)) = entry_field t2 (fst (pub_entries f)) /\
    entry_field t1 (snd (pub_entries f)) = entry_field t2 (snd (pub_entries f)).
Proof.
  intros f r t1 t2 bs E W1 W2 H1 H2.
  pose proof (hash_input_injective f r t1 t2 bs E W1 W2 H1 H2) as H.
  split; [exact (fields_eq_slots f r t1 t2 E H) | exact (fields_eq_reply f r t1 t2 E H)].
Qed.
Print Assumptions C06_hash_input_injective.

(* an unaltered exchange completes: same K and same H on both sides, the client verified the
   server's signature over H under the host key it was shown and stores that key.
   Premises: ECDH / X25519 commute (library), a signature made by the key owner verifies. *)
Theorem C06_honest_run :
  forall (hash : list Z -> list Z) (sign : Z -> list Z -> list Z) (verify : list Z -> list Z -> list Z -> bool) (sig_alg_ok sig_canonical : list Z -> bool)
         (pubblob : Z -> list Z) (ec_pub : family -> Z -> list Z) (ec_dh : family -> Z -> list Z -> Z),
    (forall f x y, ec_dh f x (ec_pub f y) = ec_dh f y (ec_pub f x)) ->
    (forall o m, verify (pubblob o) m (sign o m) = true) ->
    (forall o m, sig_alg_ok (sign o m) = true) ->
    (forall o m, sig_canonical (sign o m) = true) ->
    forall f x y o tb st_c st_s st_s' r,
      0 < t_p tb -> 0 <= x -> 0 <= y ->
      let t0 := with_client_pub ec_pub f x tb in
      server_handle hash sign pubblob ec_pub ec_dh f y o t0 st_s = Ok (st_s', r) ->
      exists st_c' k h,
        client_handle hash verify sig_alg_ok sig_canonical ec_dh f x t0 st_c r = Ok st_c' /\
        s_K st_c' = Some (PInt k) /\ s_K st_s' = Some (PInt k) /\
        s_H st_c' = Some (PBytes h) /\ s_H st_s' = Some (PBytes h) /\
        s_hostkey st_c' = Some (pubblob o) /\ verify (pubblob o) h (r_sig r) = true.
Proof.
  intros hash sign verify sig_alg_ok sig_canonical pubblob ec_pub ec_dh
         ec_comm verify_complete alg_complete canonical_complete
         f x y o tb st_c st_s st_s' r Hp Hx Hy t0 HS.
  apply server_handle_inv in HS. destruct HS as (bs & E & -> & ->).
  set (ts := server_transcript pubblob ec_pub ec_dh f y o t0) in *.
  unfold client_handle.
  rewrite (honest_transcript pubblob ec_pub ec_dh ec_comm f x y o tb Hp Hx Hy). fold t0. fold ts.
  rewrite same_H, E. cbn [bind r_ks r_sig].
  assert (KS : t_ks ts = pubblob o) by reflexivity.
  rewrite (verify_key_ok verify sig_alg_ok sig_canonical _ _ _ (hash bs));
    [|apply setkh_H|rewrite KS; apply verify_complete|apply alg_complete|apply canonical_complete].
  eexists _, (t_k ts), (hash bs). split; [reflexivity|]. cbn [s_K s_H s_hostkey].
  rewrite !setkh_K, !setkh_H, KS. repeat split; try reflexivity. apply verify_complete.
Qed.
Print Assumptions C06_honest_run.

(* single-field corruption of the server's reply: host key blob swapped, f / Q_S changed (signature
   kept), or the signature replaced (host key and public value kept) -- the client never accepts.
   Premises: injective hash, symbolic signatures (only sign o m verifies for (pubblob o, m); sign
   and pubblob are injective), ECDH / X25519 commute. *)
Theorem C06_tamper_abort :
  forall (hash : list Z -> list Z) (sign : Z -> list Z -> list Z) (verify : list Z -> list Z -> list Z -> bool) (sig_alg_ok sig_canonical : list Z -> bool)
         (pubblob : Z -> list Z) (ec_pub : family -> Z -> list Z) (ec_dh : family -> Z -> list Z -> Z),
    (forall f x y, ec_dh f x (ec_pub f y) = ec_dh f y (ec_pub f x)) ->
    (forall a b, hash a = hash b -> a = b) ->
    (forall blob m sg, verify blob m sg = true -> exists o, blob = pubblob o /\ sg = sign o m) ->
    (forall o m o' m', sign o m = sign o' m' -> o = o' /\ m = m') ->
    (forall o o', pubblob o = pubblob o' -> o = o') ->
    forall f x y o tb st_c st_s st_s' r r',
      0 < t_p tb -> 0 <= x -> 0 <= y ->
      let t0 := with_client_pub ec_pub f x tb in
      server_handle hash sign pubblob ec_pub ec_dh f y o t0 st_s = Ok (st_s', r) ->
      t_wf f Server (server_transcript pubblob ec_pub ec_dh f y o t0) = true ->
      t_wf f Client (client_transcript ec_dh f x t0 r') = true ->
      single_fault f r r' ->
      forall st', client_handle hash verify sig_alg_ok sig_canonical ec_dh f x t0 st_c r' <> Ok st'.
Proof.
  intros hash sign verify sig_alg_ok sig_canonical pubblob ec_pub ec_dh
         ec_comm hash_inj verify_sym sign_inj pubblob_inj
         f x y o tb st_c st_s st_s' r r' Hp Hx Hy t0 HS W1 W2 HF st' HC.
  apply server_handle_inv in HS. destruct HS as (bs & E & -> & _).
  set (ts := server_transcript pubblob ec_pub ec_dh f y o t0) in *.
  apply client_accept_inv in HC. destruct HC as (bc & EC & V & _).
  set (tc := client_transcript ec_dh f x t0 r') in *.
  apply verify_sym in V. destruct V as (o' & KS' & SG').
  cbn [r_ks r_f r_qs r_sig] in HF.
  destruct HF as [(SG & D) | (A & B & C & SG)].
  - (* signature unchanged: it is the owner's signature over the server's H *)
    rewrite SG in SG'. apply sign_inj in SG'. destruct SG' as (<- & HH).
    apply hash_inj in HH. subst bc.
    destruct D as [D | D].
    + apply D. rewrite KS'. reflexivity.
    + apply D. rewrite same_H in EC. rewrite t_wf_same in W2.
      assert (EO : t_old tc = t_old ts) by reflexivity.
      pose proof (hash_input_injective f Server tc ts bs EO W2 W1 EC E) as HF.
      apply fields_eq_reply in HF as (_ & _ & _ & _ & _ & _ & _ & P); [|exact EO].
      exact (wire_pub_agree ec_dh f x t0 r' ts _ P).
  - (* only the signature changed: same key, same transcript, hence the same signature *)
    apply SG.
    assert (KO : pubblob o' = pubblob o) by (rewrite <- KS', A; reflexivity).
    apply pubblob_inj in KO. subst o'.
    assert (TT : tc = ts).
    { unfold tc. rewrite (client_transcript_ext ec_dh f x t0 (mkR (t_ks ts) (t_f ts) (t_qs ts) (sign o (hash bs))) r' A B C).
      apply (honest_transcript pubblob ec_pub ec_dh ec_comm f x y o tb Hp Hx Hy). }
    rewrite TT, same_H, E in EC. injection EC as <-. exact SG'.
Qed.
Print Assumptions C06_tamper_abort.

(* a failed signature check raises SSHException (the handler stops before _activate_outbound) *)
Theorem C06_verify_fail_raises :
  forall (verify : list Z -> list Z -> list Z -> bool) (sig_alg_ok sig_canonical : list Z -> bool) st hk sg d,
    s_H st = Some (PBytes d) -> verify hk d sg = false -> verify_key verify sig_alg_ok sig_canonical st hk sg = Raise SSHExc.
Proof.
  intros verify sig_alg_ok sig_canonical st hk sg d HH V.
  rewrite (verify_key_spec verify sig_alg_ok sig_canonical st hk sg d HH), V.
  destruct (_ || _); reflexivity.
Qed.
Print Assumptions C06_verify_fail_raises.

(* a signature blob is only ever accepted if it passed every pre-verification test present in
   _verify_key (negotiated algorithm name; no bytes after the two strings of the blob) *)
Theorem C06_accept_passes_guards :
  forall (verify : list Z -> list Z -> list Z -> bool) (sig_alg_ok sig_canonical : list Z -> bool) st hk sg st',
    verify_key verify sig_alg_ok sig_canonical st hk sg = Ok st' ->
    (verify_alg_guard = true -> sig_alg_ok sg = true) /\ (verify_canonical_guard = true -> sig_canonical sg = true).
Proof.
  intros verify sig_alg_ok sig_canonical st hk sg st'.
  unfold verify_key, verify_sig_from_arg. destruct (vsrc_val st) as [[z|d]|]; try discriminate.
  destruct (verify_alg_guard && negb (sig_alg_ok sg)) eqn:A; [discriminate|].
  destruct (verify_canonical_guard && negb (sig_canonical sg)) eqn:C; [discriminate|].
  intros _. split; intros G; rewrite G in *; cbn in *.
  - now destruct (sig_alg_ok sg).
  - now destruct (sig_canonical sg).
Qed.
Print Assumptions C06_accept_passes_guards.

(* with unforgeable signatures instead of the free algebra: if the client accepts a reply shown
   under the honest owner's host key, and that owner signed nothing but this session's H, then the
   client holds the server's K and H and hashed exactly the server's transcript -- whatever else
   the attacker changed *)
Theorem C06_accept_authentic :
  forall (hash : list Z -> list Z) (sign : Z -> list Z -> list Z) (verify : list Z -> list Z -> list Z -> bool) (sig_alg_ok sig_canonical : list Z -> bool)
         (pubblob : Z -> list Z) (ec_pub : family -> Z -> list Z) (ec_dh : family -> Z -> list Z -> Z)
         (signed : Z -> list Z -> Prop),
    (forall a b, hash a = hash b -> a = b) ->
    (forall o m sg, verify (pubblob o) m sg = true -> signed o m) ->
    forall f x y o t0 st_c st_s st_s' r r' st',
      server_handle hash sign pubblob ec_pub ec_dh f y o t0 st_s = Ok (st_s', r) ->
      (forall m, signed o m -> exists k, s_H st_s' = Some (PBytes m) /\ s_K st_s' = Some (PInt k)) ->
      t_wf f Server (server_transcript pubblob ec_pub ec_dh f y o t0) = true ->
      t_wf f Client (client_transcript ec_dh f x t0 r') = true ->
      r_ks r' = pubblob o ->
      client_handle hash verify sig_alg_ok sig_canonical ec_dh f x t0 st_c r' = Ok st' ->
      s_H st' = s_H st_s' /\ s_K st' = s_K st_s' /\ wire_pub f r' = wire_pub f r /\
      hash_fields f Server (client_transcript ec_dh f x t0 r') =
      hash_fields f Server (server_transcript pubblob ec_pub ec_dh f y o t0).
Proof.
  intros hash sign verify sig_alg_ok sig_canonical pubblob ec_pub ec_dh signed hash_inj unforgeable
         f x y o t0 st_c st_s st_s' r r' st' HS ONLY W1 W2 KS HC.
  apply server_handle_inv in HS. destruct HS as (bs & E & -> & ->).
  set (ts := server_transcript pubblob ec_pub ec_dh f y o t0) in *.
  apply client_accept_inv in HC. destruct HC as (bc & EC & V & CK & CH & _).
  set (tc := client_transcript ec_dh f x t0 r') in *.
  rewrite KS in V. apply unforgeable in V. apply ONLY in V. destruct V as (k & VH & _).
  rewrite setkh_H in VH. injection VH as VH. apply hash_inj in VH. subst bc.
  rewrite same_H in EC. rewrite t_wf_same in W2.
  assert (EO : t_old tc = t_old ts) by reflexivity.
  pose proof (hash_input_injective f Server tc ts bs EO W2 W1 EC E) as HF.
  destruct (fields_eq_reply f Server tc ts EO HF) as (_ & _ & _ & _ & _ & PK & _ & P).
  rewrite setkh_H, setkh_K, CK, CH, PK. repeat split.
  - exact (wire_pub_agree ec_dh f x t0 r' ts _ P).
  - exact HF.
Qed.
Print Assumptions C06_accept_authentic.

(* the V_C / V_S a side hashes is the peer's identification line exactly as received (comments,
   trailing spaces included), so both peers hash the same strings *)
Theorem C06_version_exact : forall line, stored_version line = line.
Proof. reflexivity. Qed.
Print Assumptions C06_version_exact.

(* Transport.connect(hostkey=pinned) proceeds to authentication iff the server key the exchange
   verified has the pinned type name and the pinned blob; any other key raises before credentials
   are sent *)
Theorem C06_pinned_key_exact :
  forall sn pn sb pb, connect_pin sn pn sb pb = Ok tt <-> (sn = pn /\ sb = pb).
Proof.
  intros sn pn sb pb. unfold connect_pin, pin_rejects, pin_combine. split.
  - destruct (zlist_eqb sn pn) eqn:A, (zlist_eqb sb pb) eqn:B; cbn; try discriminate.
    intros _. apply zlist_eqb_eq in A. apply zlist_eqb_eq in B. auto.
  - intros [-> ->]. rewrite !zlist_eqb_refl. reflexivity.
Qed.
Print Assumptions C06_pinned_key_exact.

(* the session id is the H of the first exchange, after any sequence of exchanges and NEWKEYS *)
Theorem C06_session_id_latch :
  forall l, s_sid (run_events init_state l) = option_map PBytes (first_H l).
Proof. intros l. now rewrite sid_events. Qed.
Print Assumptions C06_session_id_latch.

Theorem C06_session_id_first :
  forall k h l, s_sid (run_events init_state (EvKex k h :: l)) = Some (PBytes h).
Proof. intros k h l. now rewrite sid_events. Qed.
Print Assumptions C06_session_id_first.

(* the fast evaluator used by the correspondence run is the specification *)
Theorem C06_modpow_spec : forall a n p, p <> 0 -> modpow a n p = a ^ n mod p.
Proof. exact modpow_correct. Qed.
Print Assumptions C06_modpow_spec.

(* a toy instance of the primitives that satisfies every premise of C06_tamper_abort / C06_honest_run:
   hash = identity, pubblob o = [o], sign o m = o :: m, verify checks exactly that, ec_dh x (pub y)
   = x * y *)
Definition toy_hash (b : list Z) : list Z := b.
Definition toy_pub (o : Z) : list Z := [o].
Definition toy_sign (o : Z) (m : list Z) : list Z := o :: m.
Definition toy_verify (blob m sg : list Z) : bool :=
  match blob with [o] => zlist_eqb sg (o :: m) | _ => false end.
Definition toy_ecpub (_ : family) (x : Z) : list Z := [x].
Definition toy_ecdh (_ : family) (x : Z) (q : list Z) : Z := x * hd 0 q.

Example C06_premises_satisfiable :
  (forall f x y, toy_ecdh f x (toy_ecpub f y) = toy_ecdh f y (toy_ecpub f x)) /\
  (forall a b, toy_hash a = toy_hash b -> a = b) /\
  (forall blob m sg, toy_verify blob m sg = true -> exists o, blob = toy_pub o /\ sg = toy_sign o m) /\
  (forall o m o' m', toy_sign o m = toy_sign o' m' -> o = o' /\ m = m') /\
  (forall o o', toy_pub o = toy_pub o' -> o = o') /\
  (forall o m, toy_verify (toy_pub o) m (toy_sign o m) = true).
Proof.
  repeat split.
  - intros f x y. unfold toy_ecdh, toy_ecpub. cbn. lia.
  - intros a b H. exact H.
  - intros blob m sg H. unfold toy_verify in H. destruct blob as [|o [|? ?]]; try discriminate.
    apply zlist_eqb_eq in H. exists o. split; [reflexivity | exact H].
  - unfold toy_sign in H. congruence.
  - unfold toy_sign in H. congruence.
  - intros o o' H. unfold toy_pub in H. congruence.
  - intros o m. unfold toy_verify, toy_pub, toy_sign. apply zlist_eqb_eq. reflexivity.
Qed.

Definition ex_base (old : bool) : transcript :=
  mkT [83; 83; 72] [83; 83; 72; 45] [20; 1; 2] [20; 3] [] [] [] 0 0 0 1024 2048 8192 23 5 old.

(* the honest server run succeeds on a concrete state for every family, the transcripts are
   well formed, and a reply with a changed f / Q_S is a single fault *)
Example C06_hypotheses_satisfiable :
  forall f, exists st' r,
    let t0 := with_client_pub toy_ecpub f 6 (ex_base false) in
    server_handle toy_hash toy_sign toy_pub toy_ecpub toy_ecdh f 15 7 t0 init_state = Ok (st', r) /\
    t_wf f Server (server_transcript toy_pub toy_ecpub toy_ecdh f 15 7 t0) = true /\
    t_wf f Client (client_transcript toy_ecdh f 6 t0 (mkR (r_ks r) (r_f r + 1) (9 :: r_qs r) (r_sig r))) = true /\
    single_fault f r (mkR (r_ks r) (r_f r + 1) (9 :: r_qs r) (r_sig r)) /\
    client_handle toy_hash toy_verify (fun _ => true) (fun _ => true) toy_ecdh f 6 t0 init_state r <> Raise SSHExc.
Proof.
  intros f. destruct f; eexists; eexists; (split; [vm_compute; reflexivity|]);
    (split; [vm_compute; reflexivity|]); (split; [vm_compute; reflexivity|]);
    (split; [left; split; [reflexivity | right; vm_compute; congruence] | vm_compute; congruence]).
Qed.
