(* C01 — the encrypted packet layer delivers exactly the message stream that was sent.
   P : prims are the library primitives (cipher contexts, HMAC, AEAD, compression); their laws
   prims_ok P cinv zinv are explicit premises (DESIGN.md section 5). *)
From PV Require Import Bytes ListFacts C01 C01_gen C01_proofs.
Open Scope Z_scope.

(* one message, every framing mode (cleartext, classic, encrypt-then-MAC, AEAD), compression on or off:
   the receiver keyed like the sender returns exactly the payload, consumes exactly the packet
   (whatever follows it), and both sides stay keyed alike with the sequence number advanced mod 2^32 *)
Theorem C01_roundtrip_message :
  forall P cinv zinv, prims_ok P cinv zinv ->
  forall s r data rnd w s',
    sync cinv zinv s r -> data <> [] -> bytes_ok data = true -> bytes_ok rnd = true ->
    send_message P s data rnd = Ok (w, s') ->
    exists ev r',
      (forall rest, read_message P (list Z) ftake r (w ++ rest) = Done (data, ev, r') rest) /\
      sync cinv zinv s' r' /\ p_seq s' = (p_seq s + 1) mod 2 ^ 32 /\
      (is_plain P (p_mode r) = false -> 0 < p_msz r -> ev <> EvNone).
Proof. exact roundtrip1. Qed.
Print Assumptions C01_roundtrip_message.

(* whole sessions: any list of messages interleaved with key switches (any new mode, block size,
   MAC size, compressor) and sequence-number resets: same order, same bytes, nothing left over *)
Theorem C01_roundtrip :
  forall P cinv zinv, prims_ok P cinv zinv ->
  forall ops s r ws s',
    sync cinv zinv s r -> ops_ok cinv zinv ops -> send_ops P s ops = Ok (ws, s') ->
    forall rest, exists r',
      recv_ops P r ops (concat ws ++ rest) = Some (payloads P ops, r', rest) /\ sync cinv zinv s' r'.
Proof. exact roundtrip_ops. Qed.
Print Assumptions C01_roundtrip.

(* sender and receiver sequence numbers agree after every session *)
Theorem C01_seqno :
  forall P cinv zinv, prims_ok P cinv zinv ->
  forall ops s r ws s',
    sync cinv zinv s r -> ops_ok cinv zinv ops -> send_ops P s ops = Ok (ws, s') ->
    exists r', recv_ops P r ops (concat ws) = Some (payloads P ops, r', []) /\
               p_seq s' = p_seq r' /\ 0 <= p_seq r' < 2 ^ 32.
Proof.
  intros P cinv zinv HP ops s r ws s' Hs Hok Hsend.
  destruct (roundtrip_ops P cinv zinv HP ops s r ws s' Hs Hok Hsend []) as (r' & H & Hs').
  rewrite app_nil_r in H. exists r'. split; [exact H|].
  destruct Hs' as (_ & _ & Hseq & _ & _ & _ & Hr & _). split; [exact Hseq|]. now rewrite <- Hseq.
Qed.
Print Assumptions C01_seqno.

(* ... including the wrap 2^32 - 1 -> 0, which is only possible once initial_kex_done *)
Theorem C01_seqno_wrap :
  forall P cinv zinv s r data rnd w s',
    sync cinv zinv s r -> data <> [] -> bytes_ok data = true -> bytes_ok rnd = true ->
    send_message P s data rnd = Ok (w, s') ->
    p_seq s' = (p_seq s + 1) mod 2 ^ 32 /\
    (p_seq s = 2 ^ 32 - 1 -> p_seq s' = 0 /\ p_kex s = true).
Proof.
  intros P cinv zinv s r data rnd w s' _ _ _ _ Hsend.
  destruct (send_message_inv P s data rnd w s' Hsend) as (packet & m' & _ & _ & Hro & ->).
  cbn [with_mode_seq_z p_seq]. split; [reflexivity|]. intros E. rewrite E in *.
  unfold rollover in Hro. change ((2 ^ 32 - 1 + 1) mod 2 ^ 32) with 0 in *. cbn in Hro.
  split; [reflexivity|]. now destruct (p_kex s).
Qed.
Print Assumptions C01_seqno_wrap.

(* read_all over a socket that returns arbitrary non-empty pieces = taking n bytes of the stream *)
Theorem C01_read_all :
  forall sock n out, ne sock ->
    match read_all n out sock with
    | Some (x, sock') => exists y, x = out ++ y /\ ftake n (concat sock) = Some (y, concat sock') /\ ne sock'
    | None => ftake n (concat sock) = None
    end.
Proof. exact read_all_spec. Qed.
Print Assumptions C01_read_all.

(* fragmentation independence: reading from any chunking of a byte stream (valid or not) gives
   the messages, final result and state of reading the unfragmented stream *)
Theorem C01_fragmentation :
  forall P fuel (r : pstate P) (s : list (list Z)), ne s ->
    let '(ps, evs, fi, rf, sf) := read_many P (list (list Z)) stake fuel r s in
    read_many P (list Z) ftake fuel r (concat s) = (ps, evs, fi, rf, concat sf).
Proof. exact chunked_equals_flat. Qed.
Print Assumptions C01_fragmentation.

Theorem C01_fragmentation_any_two :
  forall P fuel (r : pstate P) (s1 s2 : list (list Z)),
    ne s1 -> ne s2 -> concat s1 = concat s2 ->
    let '(ps1, evs1, f1, r1, rest1) := read_many P (list (list Z)) stake fuel r s1 in
    let '(ps2, evs2, f2, r2, rest2) := read_many P (list (list Z)) stake fuel r s2 in
    ps1 = ps2 /\ f1 = f2 /\ r1 = r2 /\ concat rest1 = concat rest2.
Proof.
  intros P fuel r s1 s2 H1 H2 E. pose proof (chunked_equals_flat P fuel r s1 H1) as A.
  pose proof (chunked_equals_flat P fuel r s2 H2) as B.
  destruct (read_many P (list (list Z)) stake fuel r s1) as [[[[ps1 evs1] f1] r1] rest1].
  destruct (read_many P (list (list Z)) stake fuel r s2) as [[[[ps2 evs2] f2] r2] rest2].
  rewrite E in A. rewrite A in B. injection B as -> _ -> -> ->. auto.
Qed.
Print Assumptions C01_fragmentation_any_two.

(* a strict prefix of a packet blocks (NeedMore) *)
Theorem C01_prefix_blocks :
  forall P cinv zinv, prims_ok P cinv zinv ->
  forall s r data rnd w s' q,
    sync cinv zinv s r -> data <> [] -> bytes_ok data = true -> bytes_ok rnd = true ->
    send_message P s data rnd = Ok (w, s') -> strict_prefix q w ->
    read_message P (list Z) ftake r q = Need.
Proof. exact prefix_blocks. Qed.
Print Assumptions C01_prefix_blocks.

(* the wire of k messages followed by a strict prefix q of the next packet (or nothing) yields exactly
   the k messages, in order, then NeedMore with q unread: no loss, duplication or merging *)
Theorem C01_complete_then_needmore :
  forall P cinv zinv, prims_ok P cinv zinv ->
  forall ops s r ws s' q,
    sync cinv zinv s r -> ops_ok cinv zinv ops -> all_msgs P ops -> send_ops P s ops = Ok (ws, s') ->
    (q = [] \/ exists p rnd w s'', p <> [] /\ bytes_ok p = true /\ bytes_ok rnd = true /\
                                  send_message P s' p rnd = Ok (w, s'') /\ strict_prefix q w) ->
    forall fuel, (length ops < fuel)%nat ->
    exists evs r', read_many P (list Z) ftake fuel r (concat ws ++ q) = (payloads P ops, evs, FNeed, r', q) /\
                   sync cinv zinv s' r'.
Proof. exact read_many_prefix. Qed.
Print Assumptions C01_complete_then_needmore.

(* read_all with socket timeouts at arbitrary positions and the need-rekey test: it returns exactly
   the next n bytes of the stream, or blocks, and NeedRekeyException is raised only when no byte of
   the current read has been consumed (out = []), leaving the stream untouched *)
Theorem C01_read_all_timeouts :
  forall sock n out ck nr, ne_t sock ->
    match read_all_t n out ck nr sock with
    | RAok x s' => exists y, x = out ++ y /\ ftake n (sdata sock) = Some (y, sdata s') /\ ne_t s'
    | RAeof => ftake n (sdata sock) = None
    | RArekey s' => ck = true /\ nr = true /\ out = [] /\ sdata s' = sdata sock /\ ne_t s'
    end.
Proof. exact read_all_t_spec. Qed.
Print Assumptions C01_read_all_timeouts.

(* fragmentation with timeouts, re-key pending or not: the run loop (which notes NeedRekeyException
   and keeps reading) delivers exactly the messages, result and state of reading the plain byte
   stream: timeouts at any positions never lose, duplicate or reorder bytes *)
Theorem C01_timeouts_lossless :
  forall P fuel nr r s, ne_t s ->
    let '(ps, evs, k, fi, rf, sf) := read_many_t P nr fuel r s in
    fi <> FFuel -> forall fuel2, (fuel <= fuel2)%nat ->
    read_many P (list Z) ftake fuel2 r (sdata s) = (ps, evs, fi, rf, sdata sf).
Proof.
  intros P fuel nr r s H. pose proof (read_many_t_flat P fuel nr r s H) as R.
  destruct (read_many_t P nr fuel r s) as [[[[[ps evs] k] fi] rf] sf].
  intros Hfi fuel2 Hle. exact (read_many_fuel_mono P fuel _ _ _ _ _ _ _ (R Hfi) Hfi fuel2 Hle).
Qed.
Print Assumptions C01_timeouts_lossless.

(* AEAD nonces: the k-th packet of a key epoch uses iv_after k iv0 (each send encrypts under the
   current IV and advances it with _inc_iv_counter, which raises at 2^64 instead of wrapping), and
   these nonces are pairwise distinct *)
Theorem C01_iv :
  forall iv k1 k2 a b,
    iv_ok iv -> iv_after k1 iv = Ok a -> iv_after k2 iv = Ok b -> k1 <> k2 -> a <> b.
Proof.
  intros iv k1 k2 a b Hi H1 H2 Hk E. pose proof (iv_after_ctr k1 iv a Hi H1) as C1.
  pose proof (iv_after_ctr k2 iv b Hi H2) as C2. subst b. lia.
Qed.
Print Assumptions C01_iv.

Theorem C01_iv_send :
  forall P s k iv data rnd w s',
    p_mode s = Aead k iv -> data <> [] -> send_message P s data rnd = Ok (w, s') ->
    exists iv', inc_iv iv = Ok iv' /\ p_mode s' = Aead k iv'.
Proof.
  intros P s k iv data rnd w s' Em _ H.
  destruct (send_message_inv P s data rnd w s' H) as (packet & m' & _ & He & _ & ->).
  unfold encrypt_packet in He. rewrite Em in He.
  apply bind_ok in He as (iv' & Ei & He). injection He as _ <-. eauto.
Qed.
Print Assumptions C01_iv_send.

(* send side: for every script of socket behaviour (partial sends of any size, timeouts, EAGAIN,
   errors, in any order) write_all hands the socket exactly the packet, in order, when it returns,
   and a prefix of it when it raises EOFError: nothing skipped, duplicated or merged *)
Theorem C01_write_all :
  forall evs out iters written,
    (snd (write_all out iters evs written) = true -> fst (write_all out iters evs written) = written ++ out) /\
    (exists t, written ++ out = fst (write_all out iters evs written) ++ t).
Proof.
  assert (Hall : forall x : list Z, exists t, x = x ++ t) by (intros x; exists []; now rewrite app_nil_r).
  induction evs as [|e rest IH]; intros out iters written.
  - destruct out; cbn [write_all fst snd]; rewrite ?app_nil_r; auto.
  - destruct out as [|o0 out'].
    { cbn [write_all fst snd]. rewrite app_nil_r. auto. }
    set (out := o0 :: out') in *.
    assert (Hpre : exists t, written ++ out = written ++ t) by (exists out; reflexivity).
    destruct e as [k| | |]; cbn [write_all]; fold out.
    + destruct (((k =? 0) && (10 <? iters)) || (k <? 0)); [cbn [fst snd]; split; [discriminate|exact Hpre]|].
      destruct (k =? zlen out); [cbn [fst snd]; auto|].
      set (n := Z.to_nat (Z.min k (zlen out))).
      destruct (IH (skipn n out) (iters + 1) (written ++ firstn n out)) as [A B].
      rewrite <- app_assoc, firstn_skipn in A, B. auto.
    + apply IH.
    + apply IH.
    + cbn [fst snd]. split; [discriminate|exact Hpre].
Qed.
Print Assumptions C01_write_all.

(* Source facts: coq/Gen/C01_gen.v is regenerated from paramiko/common.py, packet.py and transport.py on
   every run by gen/c01.py (fail closed); these theorems re-prove that what the code says is what the model
   and the premises of the theorems above assume *)

(* every offered cipher has block size >= 8 (sync's premise), AEAD IVs are fixed part + counter of
   _inc_iv_counter, every MAC is transmitted with 0 < size <= digest size (so mac_tag has length size),
   a compression-free setting exists, AEAD MAC size is 16 (the tag length of prims_ok / mode_sync), and a
   fresh Packetizer is the model's init_state (block size 8, MAC size 0, seqno 0) *)
Theorem C01_source_tables :
  forallb (fun c => let '(bs, ks, iv, aead) := c in
             (8 <=? bs) && (if aead : bool then iv =? g1_iv_fixed + g1_iv_ctr else iv =? bs)) g1_ciphers = true /\
  forallb (fun m => let '(sz, dg, etm) := m in (0 <? sz) && (sz <=? dg)) g1_macs = true /\
  existsb (fun c => negb (fst c)) g1_compressions = true /\
  g1_aead_mac_size = 16 /\
  (g1_init_bs_out, g1_init_bs_in, g1_init_msz_out, g1_init_msz_in, g1_init_seq_out, g1_init_seq_in) = (8, 8, 0, 0, 0, 0).
Proof. vm_compute. repeat split; reflexivity. Qed.
Print Assumptions C01_source_tables.

(* `(seq + 1) & xffffffff` is the model's (seq + 1) mod 2^32 and the rollover test is the model's, both directions *)
Theorem C01_source_seq :
  forall q kex,
    g1_seq_next_out q = (q + 1) mod 2 ^ 32 /\ g1_seq_next_in q = (q + 1) mod 2 ^ 32 /\
    g1_rollover_out (g1_seq_next_out q) kex = rollover q kex /\
    g1_rollover_in (g1_seq_next_in q) kex = rollover q kex.
Proof.
  intros q kex.
  assert (E : forall x, Z.land (x + 1) g1_seq_mask = (x + 1) mod 2 ^ 32).
  { intros x. change g1_seq_mask with (Z.ones 32). apply Z.land_ones. lia. }
  unfold g1_seq_next_out, g1_seq_next_in, g1_rollover_out, g1_rollover_in, rollover. rewrite !E. auto.
Qed.
Print Assumptions C01_source_seq.

(* _inc_iv_counter: fixed prefix length, counter width and step are those of the model's inc_iv *)
Theorem C01_source_inc_iv :
  forall iv,
    inc_iv iv =
    (let c := be_decode (skipn (Z.to_nat g1_iv_fixed) iv) + g1_iv_step in
     if c <? 2 ^ (8 * g1_iv_ctr) then Ok (firstn (Z.to_nat g1_iv_fixed) iv ++ be_encode (Z.to_nat g1_iv_ctr) c)
     else Raise (LibExc 2)).
Proof. reflexivity. Qed.
Print Assumptions C01_source_inc_iv.

Theorem C01_source_read_sizes :
  forall ps bs msz lo padding,
    g1_etm_remaining ps bs = ps - bs + 4 /\ g1_aead_remaining ps bs msz = ps - bs + 4 + msz /\
    g1_classic_read ps msz lo = ps + msz - lo /\ g1_block_check ps lo bs = negb ((ps - lo) mod bs =? 0) /\
    g1_payload_start = 1 /\ g1_payload_end ps padding = ps - padding.
Proof. intros. repeat split; reflexivity. Qed.
Print Assumptions C01_source_read_sizes.

(* read_all's loop test and need-rekey guard, as translated from the source, are read_all_t's *)
Theorem C01_source_read_all :
  forall n out ck nr rest,
    read_all_t n out ck nr (STimeout :: rest) =
    if negb (g1_read_continue n) then RAok out (STimeout :: rest)
    else if g1_rekey_cond ck (zlen out) nr then RArekey rest
    else read_all_t n out ck nr rest.
Proof.
  intros. cbn [read_all_t]. unfold g1_read_continue, g1_rekey_cond. rewrite Z.gtb_ltb.
  replace (negb (0 <? n)) with (n <=? 0) by (destruct (n <=? 0) eqn:A, (0 <? n) eqn:B; try reflexivity; lia).
  destruct (n <=? 0); [reflexivity|].
  replace (zlen out =? 0) with (Nat.eqb (length out) 0) by (destruct out; reflexivity).
  reflexivity.
Qed.
Print Assumptions C01_source_read_all.

(* write_all's zero-return rule, failure test, completion test and retry value are the model's *)
Theorem C01_source_write_all :
  forall k iters o out' rest written,
    write_all (o :: out') iters (WSend k :: rest) written =
    (if g1_write_zero_abort k iters || g1_write_fail k then (written, false)
     else if g1_write_done k (zlen (o :: out')) then (written ++ o :: out', true)
     else let n := Z.to_nat (Z.min k (zlen (o :: out'))) in
          write_all (skipn n (o :: out')) (iters + 1) rest (written ++ firstn n (o :: out'))) /\
    g1_write_retry_n = 0 /\ g1_write_continue (zlen (o :: out')) = true.
Proof.
  intros. split; [|split; [reflexivity|]].
  - cbn [write_all]. unfold g1_write_zero_abort, g1_write_fail, g1_write_done. rewrite Z.gtb_ltb. reflexivity.
  - unfold g1_write_continue. rewrite Z.gtb_ltb, zlen_cons. pose proof (zlen_nonneg out'). lia.
Qed.
Print Assumptions C01_source_write_all.

(* non-vacuity: the laws are satisfiable, and a concrete keyed pair is in sync in each mode *)
Example C01_laws_satisfiable : prims_ok idP (fun _ _ _ => True) (fun _ _ => True).
Proof.
  constructor; cbn; intros; auto.
  - f_equal. rewrite app_length. cbn [length]. rewrite Nat.add_sub. now apply firstn_app_exact.
  - rewrite zlen_app. unfold zlen. cbn [length]. lia.
  - destruct zd. eauto.
Qed.
Example C01_sync_example :
  sync (fun _ _ _ => True) (fun _ _ => True) (id_state (@Etm idP tt tt) 16 8) (id_state (@Etm idP tt tt) 16 8) /\
  sync (fun _ _ _ => True) (fun _ _ => True) (id_state (@Aead idP tt [0;0;0;1;0;0;0;0;0;0;0;9]) 16 16)
       (id_state (@Aead idP tt [0;0;0;1;0;0;0;0;0;0;0;9]) 16 16) /\
  exists w s', send_message idP (id_state (@Classic idP tt tt) 8 8) [5; 1; 2; 3] [] = Ok (w, s').
Proof.
  split; [|split].
  - unfold sync. cbn. repeat split; try lia; auto.
  - unfold sync. cbn. repeat split; try lia; auto.
  - eexists. eexists. vm_compute. reflexivity.
Qed.
