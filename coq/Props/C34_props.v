(* C34 — the default SFTP path canonicalisation stays inside the served root.
   The property statements; all follow from the shape of canonicalize's result, one or two slashes
   and then ordinary names joined by slashes (canonicalize_shape in Proofs/C34_proofs.v).
   Paths are lists of code points; the theorems hold for every list (any characters, any
   length), over the model of posixpath.normpath in Model/C34.v. *)
From PV Require Import Bytes C34 C34_proofs.
Open Scope Z_scope.

(* the result is absolute *)
Theorem C34_absolute : forall p : list Z, exists t, canonicalize p = SLASH :: t.
Proof. exact absolute. Qed.
Print Assumptions C34_absolute.

(* splitting the result on '/' never yields a '.' or '..' component *)
Theorem C34_no_dot_components :
  forall (p : list Z) (c : comp),
    In c (split_slash (canonicalize p)) -> c <> [DOT] /\ c <> [DOT; DOT].
Proof.
  (* a component of the split is empty or one of comps, which are ordinary names *)
  intros p c Hin. destruct (canonicalize_shape p) as (k & cs & _ & Hcs & E).
  destruct c as [|x c']; [split; discriminate|].
  assert (Hc : In (x :: c') (comps (canonicalize p))) by (apply filter_In; now split).
  rewrite E, (comps_shape k cs Hcs) in Hc.
  apply (proj1 (forallb_forall _ _) Hcs), clean_iff in Hc as (_ & Hd & Hdd & _).
  split; intros E'; rewrite E' in *; discriminate.
Qed.
Print Assumptions C34_no_dot_components.

(* stronger: the non-empty components are ordinary names (not '.', not '..', no separator) *)
Theorem C34_components_clean :
  forall p : list Z, forallb clean (comps (canonicalize p)) = true.
Proof.
  intros p. destruct (canonicalize_shape p) as (k & cs & _ & Hcs & ->). now rewrite comps_shape.
Qed.
Print Assumptions C34_components_clean.

(* ROOT + canonicalize(path), for every root string and every client path:
   - component-wise, the root's components are a prefix and what follows are exactly the
     components of the canonical path, all ordinary names (no '..' after the root);
   - resolving the concatenation the way the operating system walks a path ('.' stays,
     '..' goes up, names go down; symbolic links aside) ends below the directory the root
     resolves to.
   This also covers results that keep the POSIX double leading slash ("//x"): the extra
   separator adds an empty component, which names nothing. *)
Theorem C34_inside_root :
  forall root p : list Z,
    comps (root ++ canonicalize p) = comps root ++ comps (canonicalize p) /\
    forallb clean (comps (canonicalize p)) = true /\
    resolve (root ++ canonicalize p) = resolve root ++ comps (canonicalize p).
Proof.
  intros root p. pose proof (C34_components_clean p) as Hc.
  assert (Ha : comps (root ++ canonicalize p) = comps root ++ comps (canonicalize p)).
  { destruct (absolute p) as [t ->]. now rewrite comps_app_slash, comps_cons_slash. }
  split; [exact Ha|]. split; [exact Hc|].
  unfold resolve. rewrite Ha, walk_app, (walk_clean _ _ Hc), rev_app_distr, rev_involutive. reflexivity.
Qed.
Print Assumptions C34_inside_root.

(* SLASH is the separator literal read from the source of canonicalize on every run *)
Theorem C34_separator : SLASH = 47 /\ DOT = 46.
Proof. split; reflexivity. Qed.
Print Assumptions C34_separator.

(* the REALPATH request path: a session served with the default canonicalisation answers with the canonical
   path -- absolute, ordinary names only, inside the root -- whatever any session handled before *)
Theorem C34_realpath_default :
  forall (history : list (list Z * list Z)) (root p : list Z),
  let r := realpath_reply canonicalize history p in
  r = canonicalize p /\
  (exists t, r = SLASH :: t) /\
  forallb clean (comps r) = true /\
  resolve (root ++ r) = resolve root ++ comps r.
Proof.
  intros history root p. cbv zeta. rewrite realpath_reply_eq.
  split; [reflexivity|]. split; [apply absolute|]. split; [apply C34_components_clean|].
  apply (C34_inside_root root p).
Qed.
Print Assumptions C34_realpath_default.

(* exactly two leading slashes are kept by normpath, three or more collapse to one *)
Theorem C34_double_slash_kept :
  canonicalize [SLASH; SLASH; 120] = [SLASH; SLASH; 120] /\
  canonicalize [SLASH; SLASH; SLASH; 120] = [SLASH; 120] /\
  canonicalize [SLASH; SLASH; DOT; DOT; SLASH; 120] = [SLASH; SLASH; 120].
Proof. repeat split. Qed.
Print Assumptions C34_double_slash_kept.

(* non-vacuity / illustration: a traversal attempt against root "/srv" *)
Example C34_example :
  (* canonicalize "a/../../../etc/./passwd" = "/etc/passwd" *)
  canonicalize [97; 47; 46; 46; 47; 46; 46; 47; 46; 46; 47; 101; 116; 99; 47; 46; 47; 112]
  = [47; 101; 116; 99; 47; 112] /\
  resolve ([47; 115; 114; 118] ++
           canonicalize [97; 47; 46; 46; 47; 46; 46; 47; 46; 46; 47; 101; 116; 99; 47; 46; 47; 112])
  = [[115; 114; 118]; [101; 116; 99]; [112]].
Proof. split; reflexivity. Qed.
