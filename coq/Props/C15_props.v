(* C15 -- unauthenticated clients cannot reach connection-layer services.
   Model: coq/Model/C15.v (run-loop dispatch for types 80..100 and _ensure_authed) over
   coq/Model/C14.v (server-side auth handler). *)
From PV Require Import Bytes C39 C14 C15 C15_proofs.
Open Scope Z_scope.

(* one step: server mode, not authenticated, no channel, any connection-layer type 80..100, any
   payload fields, any pending _expected_packet, any auth-handler state (pinned user, failure
   count, gssapi exchange in progress): the only outputs are a refusal sent by the run loop, an
   exception / break that ends the run loop, or "unhandled"; no application callback, no channel
   created, nothing delivered, no Transport handler run; still no channel, still unauthenticated,
   and the auth state (pinned user, failure counter) is untouched *)
Theorem C15_no_app_preauth :
  forall sig_ok sid ts p e ts' outs,
    t_server ts = true -> a_authed (t_auth ts) = false -> t_chans ts = [] ->
    80 <= ptype_of p <= 100 ->
    loop_step sig_ok sid ts p e = (ts', outs) ->
    (forall o, In o outs -> harmless o) /\
    (forall o, In o outs -> reaches_service o = false) /\
    t_chans ts' = [] /\ t_seen ts' = t_seen ts /\ a_authed (t_auth ts') = false /\
    a_user (t_auth ts') = a_user (t_auth ts) /\ a_fails (t_auth ts') = a_fails (t_auth ts).
Proof.
  intros sig_ok sid ts p e ts' outs Hs Ha Hc Hr H.
  destruct p as [m|pt c ok ku]; [pose proof (ptype_of_auth m); lia|]. cbn [ptype_of] in Hr.
  destruct (conn_step sig_ok sid ts pt c ok ku e) as [(_ & F1 & F2 & F3) [E|[D|(O & C & S)]]].
  - exfalso. revert E. apply ensure_authed_refuses; [exact Hs | exact Ha |].
    unfold highest_userauth, gen_highest_userauth. lia.
  - rewrite Hc in D. discriminate.
  - rewrite H in *. cbn [fst snd] in *. rewrite Forall_forall in O.
    repeat split; auto using harmless_not_service; congruence.
Qed.
Print Assumptions C15_no_app_preauth.

(* every history: whatever mix of auth-layer packets (failed, partial, gssapi, username changes ...)
   and connection-layer packets a client sends, in any order and for every oracle, as long as the
   server ends up not having authenticated it, no output of the whole connection reached a
   connection-layer service and no channel exists *)
Theorem C15_preauth_history :
  forall sig_ok sid steps ts ts' outs,
    t_server ts = true -> t_chans ts = [] ->
    loop_run sig_ok sid ts steps = (ts', outs) ->
    (forall p e, In (p, e) steps -> (exists m, p = PAuth m) \/ 80 <= ptype_of p <= 100) ->
    a_authed (t_auth ts') = false ->
    (forall o, In o outs -> reaches_service o = false) /\ t_chans ts' = [].
Proof.
  intros sig_ok sid steps. induction steps as [|[p e] r IH]; intros ts ts' outs Hs Hc H Hk Hf.
  - injection H as <- <-. split; [intros o []|exact Hc].
  - cbn [loop_run] in H. destruct (loop_step sig_ok sid ts p e) as [ts1 o1] eqn:E1.
    destruct (loop_run sig_ok sid ts1 r) as [ts2 o2] eqn:E2. injection H as <- <-.
    destruct (loop_step_keeps sig_ok sid ts p e) as [Sv1 M0].
    rewrite E1 in Sv1, M0. cbn [fst] in Sv1, M0.
    (* the flag is never cleared: unauthenticated at the end means unauthenticated all along *)
    assert (F1 : a_authed (t_auth ts1) = false).
    { destruct (a_authed (t_auth ts1)) eqn:X; [|reflexivity].
      pose proof (loop_run_mono sig_ok sid r ts1 X) as M. rewrite E2 in M. cbn in M. congruence. }
    assert (F0 : a_authed (t_auth ts) = false).
    { destruct (a_authed (t_auth ts)); [|reflexivity]. specialize (M0 eq_refl). congruence. }
    assert (S1 : (forall o, In o o1 -> reaches_service o = false) /\ t_chans ts1 = []).
    { destruct p as [m|pt c ok ku].
      - destruct (auth_packet_outputs _ _ _ _ _ _ _ E1) as (A & B & _). split; [exact A | congruence].
      - destruct (Hk _ e (or_introl eq_refl)) as [[m Hm]|Hr]; [discriminate|].
        destruct (C15_no_app_preauth _ _ _ _ _ _ _ Hs F0 Hc Hr E1) as (_ & A & B & _).
        split; assumption. }
    destruct S1 as (A1 & C1). rewrite Hs in Sv1.
    destruct (IH _ _ _ Sv1 C1 E2 (fun p0 e0 H0 => Hk p0 e0 (or_intror H0)) Hf) as [A2 C2].
    split; [|exact C2]. intros o [Ho|Ho]%in_app_or; auto.
Qed.
Print Assumptions C15_preauth_history.

Definition okpw : packet * env :=
  (PAuth (Msg50 [97] s_connection (BPassword false)), MkEnv RSuccess false false [] true 1 true false false).
Definition badpw : packet * env :=
  (PAuth (Msg50 [97] s_connection (BPassword false)), MkEnv RPartial false false [] true 1 true false false).
(* the generated tables / bounds are the ones the statements above are about: every key of
   Transport._handler_table that is a connection-layer type, the channel table and the bound *)
Theorem C15_generated_tables :
  filter (fun p => 80 <=? p) handler_types = [80; 81; 82; 90; 91; 92] /\
  channel_types = [93; 94; 95; 96; 97; 98; 99; 100] /\ highest_userauth = 79 /\
  forallb (fun p => (highest_userauth <? p) && (p <=? 100)) (filter (fun p => 80 <=? p) handler_types ++ channel_types) = true.
Proof. vm_compute. repeat split. Qed.
Print Assumptions C15_generated_tables.

(* a CHANNEL_OPEN whose kind is not valid UTF-8 makes _ensure_authed raise: the run loop ends,
   nothing is dispatched *)
Example C15_example_bad_kind :
  let '(ts, outs) := loop_run toy_sig_ok [] (tinit true) [(PConn 90 7 true false, snd okpw)] in
  outs = [TRaise UnicodeErr] /\ a_active (t_auth ts) = false /\ t_chans ts = [].
Proof. vm_compute. repeat split. Qed.

(* non-vacuity / contrast: after a successful password the same CHANNEL_OPEN does consult the
   application and creates a channel; before it, it is refused *)
Definition chopen : packet * env := (PConn 90 7 true true, snd okpw).
Example C15_example_contrast :
  (let '(ts, outs) := loop_run toy_sig_ok [] (tinit true) [okpw; chopen] in
   In (TCallback 90) outs /\ t_chans ts = [0]) /\
  (let '(ts, outs) := loop_run toy_sig_ok [] (tinit true) [badpw; chopen] in
   existsb reaches_service outs = false /\ t_chans ts = [] /\
   In (TReply (Ok [92; 0;0;0;7; 0;0;0;1; 0;0;0;0; 0;0;0;2;101;110])) outs).
Proof. vm_compute. repeat split; tauto. Qed.
