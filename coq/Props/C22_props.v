(* C22 -- channel EOF and CLOSE are sent at most once and end data transmission.

   Reading guide.  [crun (init_cfg s progs) sch = Some c]: configuration [c] is reached from a
   fresh channel state [s] (nothing sent; any windows / active flag / map membership; blocking
   (timeout None) or non-blocking (timeout 0.0) sends) when the
   threads [progs] (any number of threads, any operations, including the peer's messages and
   _unlink) are run under the schedule [sch] (any list of thread numbers).  [wire c] is the order
   in which messages were handed to transport._send_user_message; [pending c] are the messages
   already produced under the channel lock whose _send_user_message call has not happened yet;
   [ltr c] is the order in which the messages were produced under the lock. *)
From PV Require Import Bytes Sched C22 C22_proofs.
Open Scope Z_scope.

(* at most one EOF, under every interleaving (also counting messages still to be emitted) *)
Theorem C22_eof_once :
  forall s progs sch c,
    init_st s -> crun (init_cfg s progs) sch = Some c ->
    (cnt isEof (wire c) + cnt isEof (pending c) <= 1)%nat.
Proof.
  intros s progs sch c Hi H. destruct (reach_Inv _ _ _ _ Hi H) as [HP (H1 & _)].
  specialize (HP isEof). lia.
Qed.
Print Assumptions C22_eof_once.

(* at most one CLOSE *)
Theorem C22_close_once :
  forall s progs sch c,
    init_st s -> crun (init_cfg s progs) sch = Some c ->
    (cnt isClose (wire c) + cnt isClose (pending c) <= 1)%nat.
Proof.
  intros s progs sch c Hi H. destruct (reach_Inv _ _ _ _ Hi H) as [HP (_ & _ & H3 & _)].
  specialize (HP isClose). lia.
Qed.
Print Assumptions C22_close_once.

(* a peer CLOSE handled on an active channel that is in the transport's map is answered:
   from the moment its critical section has run there is exactly one CLOSE of ours sent or about
   to be sent -- the one we sent before, or the answer -- whatever happens afterwards; once every
   thread has emitted what it produced it is on the wire *)
Theorem C22_close_answered :
  forall s progs s1 c tid c' s2 c'',
    init_st s -> crun (init_cfg s progs) s1 = Some c ->
    at_op c tid KCloseH -> active (sh c) = true -> in_map (sh c) = true ->
    cstep c tid = Some c' -> crun c' s2 = Some c'' ->
    (cnt isClose (wire c'') + cnt isClose (pending c'') = 1)%nat /\
    (quiescent c'' -> cnt isClose (wire c'') = 1%nat).
Proof.
  intros s progs s1 c tid c' s2 c'' Hi H1 Hat Ha Hm Hs H2.
  destruct (after_closeh _ _ _ _ _ _ _ _ Hi H1 Hat Hs H2) as (_ & [HP HS] & _ & G).
  destruct (G Ha Hm) as [_ G2]. destruct (SI_gotc _ _ _ _ _ _ HS G2) as (K & _).
  specialize (HP isClose). split; [lia|]. unfold quiescent. intros Q. rewrite Q in HP. cbn in HP. lia.
Qed.
Print Assumptions C22_close_answered.

(* after the peer's CLOSE has been handled the channel is out of the transport's map for ever;
   if it was an open channel (so both CLOSEs are now exchanged) it is closed and EOF'd for ever
   and NO operation of any thread produces a message any more: the lock-order trace is frozen
   and the wire only receives what was already pending *)
Theorem C22_released :
  forall s progs s1 c tid c' s2 c'',
    init_st s -> crun (init_cfg s progs) s1 = Some c ->
    at_op c tid KCloseH -> cstep c tid = Some c' -> crun c' s2 = Some c'' ->
    in_map (sh c'') = false /\
    (active (sh c) = true -> in_map (sh c) = true ->
       closed (sh c'') = true /\ eof_sent (sh c'') = true /\ ltr c'' = ltr c' /\
       forall p, (cnt p (wire c'') + cnt p (pending c'') = cnt p (wire c') + cnt p (pending c'))%nat).
Proof. exact released. Qed.
Print Assumptions C22_released.

(* ... and operations on such a channel fail instead of sending: in a closed and EOF'd state every
   operation produces no message, send / send_stderr raise socket.error, the state stays dead *)
Theorem C22_released_ops_fail :
  forall o s,
    closed s = true -> eof_sent s = true ->
    o_msgs (exec o s) = [] /\ closed (o_st (exec o s)) = true /\ eof_sent (o_st (exec o s)) = true /\
    (is_send_op o = true -> o_res (exec o s) = r_exn SocketErr).
Proof.
  intros o s Hc He. destruct (exec_dead o s Hc He) as (A & B & C). repeat split; auto.
  destruct o; try discriminate; intros _; cbn; unfold send_cs; now rewrite Hc.
Qed.
Print Assumptions C22_released_ops_fail.

(* what does hold about data: in the order of the critical sections no DATA / EXTENDED_DATA
   follows an EOF or CLOSE and no EOF follows the CLOSE, and the wire carries exactly the
   messages produced under the lock (as multisets) ... *)
Theorem C22_no_data_after_in_lock_order :
  forall s progs sch c,
    init_st s -> crun (init_cfg s progs) sch = Some c ->
    no_data_after (ltr c) = true /\ no_eof_after_close (ltr c) = true /\
    (forall p, (cnt p (wire c) + cnt p (pending c) = cnt p (ltr c))%nat).
Proof.
  intros s progs sch c Hi H. destruct (reach_Inv _ _ _ _ Hi H) as [HP HS].
  destruct HS as (_ & _ & _ & _ & _ & _ & _ & H8 & _ & H10 & _). auto.
Qed.
Print Assumptions C22_no_data_after_in_lock_order.

(* ... and a data message is only ever produced in a state where neither EOF nor CLOSE has been
   produced (window reservation refuses afterwards).  [exec] ranges over every step of every
   operation, including [KBlocked]: the step of a writer that was blocked in
   out_buffer_cv.wait() on a zero window (timeout None), was notified, re-acquired the lock and
   re-tests closed / eof_sent inside and AFTER the wait loop before reserving *)
Theorem C22_data_reserved_before_end :
  forall o s, existsb isData (o_msgs (exec o s)) = true -> closed s = false /\ eof_sent s = false.
Proof. intros o s. apply (effect_data _ _ _ _ _ _ _ (exec_effect o s)). Qed.
Print Assumptions C22_data_reserved_before_end.

(* KNOWN FINDING.  The desired statement
     C22_no_data_after : forall s progs sch c, init_st s -> crun (init_cfg s progs) sch = Some c ->
                         no_data_after (wire c) = true
   is FALSE for the code as it is: _send releases the lock before calling _send_user_message, so
   thread 0 = send(5) reserves, thread 1 = close() runs completely, thread 0 emits.
   Schedule [0;1;1;1;0] puts EOF, CLOSE, DATA on the wire. *)
Theorem C22_no_data_after_refuted :
  exists s progs sch c,
    init_st s /\ crun (init_cfg s progs) sch = Some c /\ quiescent c /\
    wire c = [MEof; MClose; MData 5] /\ no_data_after (wire c) = false.
Proof.
  exists witness_init, witness_progs, witness_sched.
  eexists. split; [repeat split|]. split; [vm_compute; reflexivity|]. repeat split.
Qed.
Print Assumptions C22_no_data_after_refuted.

(* same root cause (shutdown_write emits outside the lock): EOF can follow CLOSE on the wire;
   not part of the property text, recorded for the maintainers *)
Theorem C22_eof_after_close_reachable :
  exists s progs sch c,
    init_st s /\ crun (init_cfg s progs) sch = Some c /\ quiescent c /\ wire c = [MClose; MEof].
Proof.
  exists witness_init, [[OShutdown 1]; [OClose]], [0; 1; 1; 0]%nat.
  eexists. split; [repeat split|]. split; [vm_compute; reflexivity|]. repeat split.
Qed.
Print Assumptions C22_eof_after_close_reachable.

(* non-vacuity: the hypotheses of C22_close_answered / C22_released are met by a reachable
   configuration (three threads, after the data-after-close schedule) *)
Example C22_closeh_reachable :
  exists s progs s1 c tid c',
    init_st s /\ crun (init_cfg s progs) s1 = Some c /\ at_op c tid KCloseH /\
    active (sh c) = true /\ in_map (sh c) = true /\ cstep c tid = Some c' /\
    wire c = [MEof; MClose; MData 5].
Proof.
  exists witness_init, [[OSend 5]; [OClose]; [OPeerClose; OSend 1]], [0; 1; 1; 1; 0; 2]%nat.
  eexists. exists 2%nat. eexists.
  split; [repeat split|]. split; [vm_compute; reflexivity|].
  split; [eexists; eexists; repeat split; reflexivity|]. repeat split.
Qed.

(* the blocking path is exercised: blocked writer, shutdown_write, late WINDOW_ADJUST: the writer
   returns 0 and the wire is just [EOF]; before the WINDOW_ADJUST it cannot run at all *)
Example C22_blocked_writer_refused :
  exists c,
    crun (init_cfg blocked_init [[OSend 5]; [OShutdown 1; OPeerWa 7]]) [0; 1; 1; 1; 1; 0]%nat = Some c /\
    wire c = [MEof] /\ quiescent c /\
    map res (thr c) = [r_ok 0; r_ok 0 ++ r_ok 0] /\
    crun (init_cfg blocked_init [[OSend 5]; [OShutdown 1; OPeerWa 7]]) [0; 1; 1; 0]%nat = None.
Proof. eexists. split; [vm_compute; reflexivity|]. repeat split. Qed.

Example C22_dead_state_exists :
  exists s, closed s = true /\ eof_sent s = true /\ is_send_op (OSend 3) = true.
Proof. exists (set_closed (set_eof_sent witness_init)). repeat split. Qed.
