(* C02 — tampered encrypted traffic is never accepted as different data.
   The model (Model/C01.v) is shared with C01; read_message reports, with every delivered
   message, the authenticated event `authev` (MAC input and tag, or AEAD iv/aad/ciphertext). *)
From PV Require Import Bytes C01 C01_proofs C02 C02_gen C02_proofs.
Open Scope Z_scope.

(* util.constant_time_bytes_eq, modelled literally (length test, OR of XORs), is equality *)
Theorem C02_cteq : forall a b : list Z, constant_time_bytes_eq a b = true <-> a = b.
Proof. exact cteq_iff. Qed.
Print Assumptions C02_cteq.

(* in every protected path a payload is produced (by `finish`) only after the tag comparison
   returned true / AEAD decryption succeeded, on bytes that contain the receiver's current
   sequence number (MAC modes) or are bound to its current IV (AEAD); truncated MACs are the
   tag (`mac_tag` = digest[:mac_size]); the classic path needs mac_size > 0 *)
Theorem C02_no_deliver_before_check :
  forall P r buf p ev r' rest,
    read_message P (list Z) ftake r buf = Done (p, ev, r') rest ->
    match p_mode r with
    | Plain => True
    | Classic c k =>
        0 < p_msz r ->
        exists size packet tag m',
          ev = EvMac (mac_input (p_seq r) size packet) tag /\
          constant_time_bytes_eq (mac_tag P k (p_msz r) (mac_input (p_seq r) size packet)) tag = true /\
          finish P r m' size packet ev = Ok (p, ev, r')
    | Etm c k =>
        exists size packet tag,
          ev = EvMac (mac_input (p_seq r) size packet) tag /\
          constant_time_bytes_eq (mac_tag P k (p_msz r) (mac_input (p_seq r) size packet)) tag = true /\
          finish P r (Etm (snd (c_dec P c packet)) k) size (fst (c_dec P c packet)) ev = Ok (p, ev, r')
    | Aead k iv =>
        exists aad ct pt iv',
          ev = EvAead iv aad ct /\ a_dec P k iv ct aad = Some pt /\ inc_iv iv = Ok iv' /\
          finish P r (Aead k iv') (be_decode aad) pt ev = Ok (p, ev, r')
    end.
Proof.
  intros P r buf p ev r' rest H. apply deliver_inv in H.
  destruct (p_mode r); auto. destruct H as (size & packet & tag & _ & H). eauto.
Qed.
Print Assumptions C02_no_deliver_before_check.

(* the sender's MAC input is seq || the whole packet (classic: the complete plaintext packet;
   encrypt-then-MAC: every wire byte before the tag); with C02_no_deliver_before_check (the receiver
   recomputes the tag over seq || size || exactly the bytes `finish` consumes) no packet byte is
   outside the MAC *)
Theorem C02_mac_covers_packet :
  forall P s packet out m',
    encrypt_packet P s packet = Ok (out, m') ->
    match p_mode s with
    | Classic c k =>
        out = fst (c_enc P c packet) ++ mac_tag P k (p_msz s) (be_encode 4 (p_seq s) ++ packet)
    | Etm c k =>
        out = (firstn 4 packet ++ fst (c_enc P c (skipn 4 packet))) ++
              mac_tag P k (p_msz s) (be_encode 4 (p_seq s) ++ (firstn 4 packet ++ fst (c_enc P c (skipn 4 packet))))
    | _ => True
    end.
Proof.
  intros P s packet out m'. unfold encrypt_packet. destruct (p_mode s) as [|c k|c k|k iv]; auto.
  - destruct (c_enc P c packet) as [o c']. intros H. injection H as <- _. reflexivity.
  - destruct (c_enc P c (skipn 4 packet)) as [o c']. intros H. injection H as <- _. reflexivity.
Qed.
Print Assumptions C02_mac_covers_packet.

(* C02_prefix (encrypt-then-MAC and AEAD, one key epoch): for EVERY byte string T presented to a
   receiver keyed like the sender, under the symbolic premise that every tag / AEAD ciphertext it
   accepted is in the sender's log ("verifies only if the key owner produced it for exactly these
   bytes"), and the stated protocol bound that the nonces (packed seqno / IV) of the receiver states
   of the honest run are pairwise distinct (fewer than 2^32 packets per key epoch, IV counter below
   2^64: RFC 4344 requires re-keying before the wrap; C01_iv proves the IV part), the delivered
   messages are a prefix of the sent messages, after which the result is an error or NeedMore
   (FFuel only if the caller's fuel ran out).  Flips, deletions, insertions, reordering and replay
   are all instances of T. *)
Theorem C02_prefix :
  forall P cinv zinv, prims_ok P cinv zinv ->
  forall ops s r ws s',
    sync cinv zinv s r -> ops_ok cinv zinv ops -> all_msgs P ops -> send_ops P s ops = Ok (ws, s') ->
    protected r -> bytes_ok (concat ws) = true ->
    forall fuelh, (length ops < fuelh)%nat ->
    NoDup (honest_nonces P fuelh r (concat ws)) ->
    forall fuel T ps acc fi rf sf, bytes_ok T = true ->
      read_many P (list Z) ftake fuel r T = (ps, acc, fi, rf, sf) ->
      authentic (sender_log P fuelh r (concat ws)) acc ->
      is_prefix ps (payloads P ops) /\ (fi = FNeed \/ fi = FFuel \/ exists e, fi = FErr e).
Proof.
  intros P cinv zinv HP ops s r ws s' Hs Hok Hall Hsend Hp BW fuelh Hf Hnd fuel T ps acc fi rf sf BT Ha Hauth.
  destruct (read_many_prefix P cinv zinv HP ops s r ws s' [] Hs Hok Hall Hsend (or_introl eq_refl) fuelh Hf)
    as (evs & r' & Hrm & _).
  rewrite app_nil_r in Hrm. split; [|destruct fi; eauto].
  unfold authentic, sender_log, read_many_flat in Hauth. rewrite Hrm in Hauth.
  apply (prefix_core P fuel fuelh r (concat ws) [] _ evs _ _ _ T ps acc fi rf sf Hrm Hnd); auto.
Qed.
Print Assumptions C02_prefix.

(* every delivered message's authenticated event carries the receiver's current nonce *)
Theorem C02_nonce_bound :
  forall P (r : pstate P) T p ev r' rest,
    protected r -> read_message P (list Z) ftake r T = Done (p, ev, r') rest ->
    ev_nonce ev = state_nonce r /\ protected r'.
Proof. exact nonce_delivered. Qed.
Print Assumptions C02_nonce_bound.

(* non-vacuity of the distinctness hypothesis (toy primitives, three messages, four states) *)
Example C02_nodup_example :
  NoDup (honest_nonces toyP 4 (cfg_apply (init_state 0 true) ex_cfg) ex_wire) /\
  length (honest_nonces toyP 4 (cfg_apply (init_state 0 true) ex_cfg) ex_wire) = 4%nat.
Proof.
  (* evaluated once, for both conjuncts *)
  assert (E : honest_nonces toyP 4 (cfg_apply (init_state 0 true) ex_cfg) ex_wire
              = [[0;0;0;0]; [0;0;0;1]; [0;0;0;2]; [0;0;0;3]]) by (vm_compute; reflexivity).
  rewrite E. split; [|reflexivity]. repeat constructor; cbn; intuition discriminate.
Qed.

(* The single-step lemmas used by C02_prefix (complete statements): in a given receiver state the
   authenticated event determines the delivered payload and the next receiver state. *)
Theorem C02_aead_step :
  forall P r k iv T W p ev r' rest ph evh rh resth,
    p_mode r = Aead k iv ->
    read_message P (list Z) ftake r T = Done (p, ev, r') rest ->
    read_message P (list Z) ftake r W = Done (ph, evh, rh) resth ->
    ev = evh -> p = ph /\ r' = rh.
Proof. exact aead_step. Qed.
Print Assumptions C02_aead_step.

Theorem C02_etm_step :
  forall P r c k T W p ev r' rest ph evh rh resth,
    p_mode r = Etm c k -> bytes_ok T = true -> bytes_ok W = true ->
    read_message P (list Z) ftake r T = Done (p, ev, r') rest ->
    read_message P (list Z) ftake r W = Done (ph, evh, rh) resth ->
    ev = evh -> p = ph /\ r' = rh.
Proof. exact etm_step. Qed.
Print Assumptions C02_etm_step.

(* NOT proved: the classic (MAC-then-encrypt) instance of the multi-packet theorem C02_prefix.  Proved for that
   path: C02_no_deliver_before_check, C02_mac_covers_packet and the single-step fragment below: two deliveries
   from the same receiver state with the same authenticated event are `finish` applied to the SAME plaintext
   packet and tag.  Missing for the whole stream: (1) a byte-range law for decryption output (the length field is
   read from decrypted bytes, so size is known only modulo 2^32), (2) the induction with receiver states equal
   up to the cipher-context state (the adversary's ciphertext need not be the sender's). *)
Theorem C02_classic_step_packet_partial :
  forall P r c k T W p ev r' rest ph evh rh resth,
    p_mode r = Classic c k -> 0 < p_msz r ->
    read_message P (list Z) ftake r T = Done (p, ev, r') rest ->
    read_message P (list Z) ftake r W = Done (ph, evh, rh) resth ->
    ev = evh ->
    exists size sizeh packet tag m1 m2,
      ev = EvMac (mac_input (p_seq r) size packet) tag /\ size mod 2 ^ 32 = sizeh mod 2 ^ 32 /\
      constant_time_bytes_eq (mac_tag P k (p_msz r) (mac_input (p_seq r) size packet)) tag = true /\
      finish P r m1 size packet ev = Ok (p, ev, r') /\ finish P r m2 sizeh packet ev = Ok (ph, ev, rh).
Proof.
  intros P r c k T W p ev r' rest ph evh rh resth Em Hm H1 H2 E.
  apply deliver_inv in H1. apply deliver_inv in H2. rewrite Em in H1, H2.
  destruct (H1 Hm) as (sz & pk & tg & m1 & -> & C1 & F1).
  destruct (H2 Hm) as (sz2 & pk2 & tg2 & m2 & -> & _ & F2).
  rewrite <- E in F2. apply mac_event_inj in E as (Hs & <- & <-).
  exists sz, sz2, pk, tg, m1, m2. auto.
Qed.
Print Assumptions C02_classic_step_packet_partial.

(* Source facts: coq/Gen/C02_gen.v is regenerated from paramiko/util.py and packet.py on every run by
   gen/c02.py (fail closed: it also checks that compute_hmac is one HMAC over the whole message, that both
   receiver MAC paths build pack(">II", seqno, size) + packet, truncate to mac_size, compare with
   util.constant_time_bytes_eq and raise SSHException, and the sender's MAC input) *)

(* the comparison function as written in util.py IS the model's constant_time_bytes_eq (hence equality, C02_cteq) *)
Theorem C02_source_cteq : forall a b, g2_cteq a b = constant_time_bytes_eq a b.
Proof.
  intros a b. unfold g2_cteq, constant_time_bytes_eq, g2_cteq_acc, g2_cteq_cmp, g2_cteq_init, g2_cteq_final.
  now rewrite fold_xor_acc.
Qed.
Print Assumptions C02_source_cteq.

Theorem C02_source_mac_layout :
  forall seq size packet,
    mac_input seq size packet =
    be_encode (Z.to_nat (nth 0 g2_mac_recv_fields 0)) seq ++ be_encode (Z.to_nat (nth 1 g2_mac_recv_fields 0)) size ++ packet
    /\ length g2_mac_recv_fields = 2%nat /\ g2_mac_send_fields = [4].
Proof. intros. repeat split; reflexivity. Qed.
Print Assumptions C02_source_mac_layout.

(* statement order of read_message: every tag check precedes every use of the packet contents (payload slice,
   decompression, Message construction, seqno store, return); the ETM check precedes decryption *)
Theorem C02_source_order : read_order_ok g2_read_order = true.
Proof. vm_compute. reflexivity. Qed.
Print Assumptions C02_source_order.

(* a tampered stream is read with the same result however it is fragmented (shared with C01) *)
Theorem C02_fragmentation :
  forall P fuel (r : pstate P) (s : list (list Z)), ne s ->
    let '(ps, evs, fi, rf, sf) := read_many P (list (list Z)) stake fuel r s in
    read_many P (list Z) ftake fuel r (concat s) = (ps, evs, fi, rf, concat sf).
Proof. exact chunked_equals_flat. Qed.
Print Assumptions C02_fragmentation.

(* non-vacuity: with the toy primitives a flipped ciphertext byte is rejected (Mismatched MAC),
   the untouched stream is delivered *)
Example C02_toy_tamper :
  let cfg := Cfg 2 8 8 5 [1;2;3;4;5;6;7;8] [9;9] 0 [] false None in
  let w := concat (fst (fst (send_many (cfg_apply (init_state 0 true) cfg) [([7;1;2], [])]))) in
  run_recv (0, true, cfg, [w]) = [3; 7; 1; 2; -1] /\
  run_recv (0, true, cfg, [firstn 6 w ++ [Z.lxor (nth 6 w 0) 1] ++ skipn 7 w]) = [-2; 1].
Proof. vm_compute. split; reflexivity. Qed.
