(* C44 -- an auth strategy tries sources in order and reports every failure.
   The statements, proved from the lemmas of Proofs/C44_proofs.v: sources that raise are passed
   over (auth_loop_raise), and the first that does not decides (auth_loop_spec).
   srcs = the sources in the order get_sources() produces them, each paired with what its
   authenticate() does (oracle); any length, including 0. *)
From PV Require Import Bytes AuthShape C44_gen C44 C44_proofs.
Open Scope Z_scope.

(* a successful run called exactly the sources up to and including the first one that
   returned, in the produced order; everything before it raised; nothing after it was called *)
Theorem C44_order_and_stop :
  forall srcs ov,
    authenticate srcs = Success ov ->
    exists pre s v post,
      srcs = pre ++ (s, Returns v) :: post /\ all_raise pre /\
      called (authenticate srcs) = map fst pre ++ [s].
Proof.
  intros srcs ov H. destruct (result_lists_all srcs ov H) as (pre & s & v & post & E & Hr & ->).
  exists pre, s, v, post. split; [exact E|]. split; [exact Hr|].
  rewrite H. cbn [called]. now rewrite map_app.
Qed.
Print Assumptions C44_order_and_stop.

(* in every case (success, AuthFailure, or an uncaught BaseException) the sources called form
   an initial segment of the produced order *)
Theorem C44_called_in_order :
  forall srcs, exists rest, map fst srcs = called (authenticate srcs) ++ rest.
Proof.
  intros srcs. unfold authenticate. destruct (auth_loop_spec srcs []) as
      [(pre & s & v & post & E & _ & Hl)|[(_ & Hl)|(pre & s & e & post & E & _ & Hl)]]; rewrite Hl; cbn [called app].
  - exists (map fst post). rewrite E, !map_app. cbn. now rewrite <- app_assoc.
  - exists []. now rewrite app_nil_r.
  - exists (map fst post). rewrite E, !map_app. cbn. now rewrite <- app_assoc.
Qed.
Print Assumptions C44_called_in_order.

(* the returned result lists each attempted source with its outcome, in order *)
Theorem C44_result_lists_all :
  forall srcs ov,
    authenticate srcs = Success ov ->
    exists pre s v post,
      srcs = pre ++ (s, Returns v) :: post /\ all_raise pre /\ ov = pre ++ [(s, Returns v)].
Proof. exact result_lists_all. Qed.
Print Assumptions C44_result_lists_all.

(* AuthFailure is raised exactly when every source raised (in particular for no sources at
   all), and it carries every source with the error it raised *)
Theorem C44_failure_carries_all :
  forall srcs,
    (all_raise srcs -> authenticate srcs = AuthFailure srcs) /\
    (forall ov, authenticate srcs = AuthFailure ov -> all_raise srcs /\ ov = srcs).
Proof.
  intros srcs. split; [apply auth_loop_all_raise|].
  intros ov H. unfold authenticate in H. destruct (auth_loop_spec srcs []) as
      [(pre & s & v & post & _ & _ & Hl)|[(Hr & Hl)|(pre & s & e & post & _ & _ & Hl)]];
    rewrite Hl in H; try discriminate H.
  injection H as <-. auto.
Qed.
Print Assumptions C44_failure_carries_all.

(* conversely: the first source that returns after only caught failures makes the run succeed *)
Theorem C44_first_success_wins :
  forall pre s v post,
    all_raise pre ->
    authenticate (pre ++ (s, Returns v) :: post) = Success (pre ++ [(s, Returns v)]).
Proof. intros pre s v post Hr. unfold authenticate. now rewrite auth_loop_raise. Qed.
Print Assumptions C44_first_success_wins.

(* complete case analysis, including exceptions that are not caught *)
Theorem C44_complete :
  forall srcs,
    (exists pre s v post,
        srcs = pre ++ (s, Returns v) :: post /\ all_raise pre /\
        authenticate srcs = Success (pre ++ [(s, Returns v)])) \/
    (all_raise srcs /\ authenticate srcs = AuthFailure srcs) \/
    (exists pre s e post,
        srcs = pre ++ (s, Escapes e) :: post /\ all_raise pre /\
        authenticate srcs = Propagated e pre s).
Proof. intros srcs. exact (auth_loop_spec srcs []). Qed.
Print Assumptions C44_complete.

(* the shape facts read off paramiko/auth_strategy.py and client.py on this run (Gen/C44_gen.v)
   are the ones the model assumes: one `for source in self.get_sources()` loop; exactly one
   source.authenticate(transport) call, inside the try; `except Exception` records the exception;
   SourceResult(source, result) appended for every attempted source before the break; break on
   success; `if not succeeded: raise AuthFailure(result=overall_result)`; `return overall_result`;
   each AuthSource class makes one call of the expected Transport method and returns its value;
   SSHClient.connect hands the transport to auth_strategy.authenticate once and returns its result *)
Theorem C44_source_shape :
  src_loop_shape = expected_loop_shape /\
  src_source_facts = expected_source_facts /\
  src_source_result_fields = expected_source_result_fields /\
  src_auth_result_bases = expected_auth_result_bases /\ src_auth_result_keeps_strategy = true /\
  src_auth_failure_bases = expected_auth_failure_bases /\ src_auth_failure_keeps_result = true /\
  src_client_glue = expected_client_glue.
Proof. repeat split; reflexivity. Qed.
Print Assumptions C44_source_shape.

(* hence the loop of the source as it is now (the shape-driven loop evaluated at the generated
   shape, which is what the correspondence run executes) is the model of the theorems above *)
Theorem C44_model_is_source_loop : forall srcs, authenticate_src srcs = authenticate srcs.
Proof.
  intros srcs. unfold authenticate_src, authenticate. destruct C44_source_shape as [-> _].
  apply auth_loop_g_expected.
Qed.
Print Assumptions C44_model_is_source_loop.

(* non-vacuity *)
Example C44_example_success :
  authenticate [(7, Raises 1); (8, Raises 2); (9, Returns 0); (10, Raises 3); (11, Returns 1)]
  = Success [(7, Raises 1); (8, Raises 2); (9, Returns 0)]
  /\ all_raise [(7, Raises 1); (8, Raises 2)].
Proof. split; reflexivity. Qed.

Example C44_example_failure :
  authenticate [(7, Raises 1); (8, Raises 2)] = AuthFailure [(7, Raises 1); (8, Raises 2)]
  /\ authenticate [] = AuthFailure [].
Proof. split; reflexivity. Qed.
