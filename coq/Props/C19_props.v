(* C19 -- channel senders never exceed the peer's window or maximum packet size; receivers never
   grant more window than consumed.  The three accounting statements are read off the invariant
   [Inv] of Proofs/C19_proofs.v, which holds in every reachable state ([reach_inv]); C19_sanitize
   and the witness stand apart.

   `run (init W0 P W dmp c) ops` is the state of one direction of a channel (sender half of one
   Channel object, receiver half of its peer, the wire between) after the critical sections `ops`,
   an arbitrary interleaving of any number of sending and receiving threads (Model/C19.v).
   W0 = initial window advertised by the peer, P = maximum packet size advertised by the peer,
   W = the receiver's own in_window_size, dmp = transport default_max_packet_size, c = combine_stderr.
   Sizes handed in by the application are lengths, i.e. non-negative (op_wf). *)
From PV Require Import Bytes C19_gen C19 C19_proofs.
Open Scope Z_scope.

(* stdout and stderr together: bytes put on the wire <= bytes reserved under the lock
   <= initial window + all window adjustments received; the remaining credit is never negative *)
Theorem C19_cumulative :
  forall W0 P W dmp c ops,
    0 <= W0 -> 0 <= W -> Forall op_wf ops ->
    let s := run (init W0 P W dmp c) ops in
    emitted s <= g_res s /\ g_res s <= W0 + g_adjin s /\
    emitted s + in_hand s = g_res s /\ ow s = W0 + g_adjin s - g_res s /\ 0 <= ow s.
Proof.
  intros W0 P W dmp c ops H0 HW Hwf s. destruct (reach_inv W0 P W dmp c ops H0 HW Hwf) as (HI & _). fold s in HI.
  pose proof (i_ow _ _ HI). pose proof (i_win _ _ HI). pose proof (i_emit _ _ HI).
  pose proof (dsum_nonneg _ _ (i_obox _ _ HI)). unfold emitted, in_hand. lia.
Qed.
Print Assumptions C19_cumulative.

(* every data message ever built (on the wire now, delivered earlier, or still in a sender's hand)
   carries between 1 and out_max_packet_size - 64 bytes, out_max_packet_size being the sanitized
   peer value; hence at most the peer's maximum packet size whenever that is >= 4096 *)
Theorem C19_packet :
  forall W0 P W dmp c ops,
    0 <= W0 -> 0 <= W -> Forall op_wf ops ->
    let s := run (init W0 P W dmp c) ops in
    Forall (fun m => 0 < dlen m <= sanitize_packet_size dmp (Some P) - 64) (elog s ++ dwire s ++ obox s) /\
    (4096 <= P -> Forall (fun m => dlen m <= P - 64) (elog s ++ dwire s ++ obox s)).
Proof. exact packet. Qed.
Print Assumptions C19_packet.

(* window adjustments put on the wire <= adjustments computed <= bytes handed to the application
   by recv / recv_stderr plus bytes of discarded extended data; the difference is exactly
   in_window_sofar (plus discarded bytes never counted, when the discard branch does not credit) *)
Theorem C19_grant_le_consumed :
  forall W0 P W dmp c ops,
    0 <= W0 -> 0 <= W -> Forall op_wf ops ->
    let s := run (init W0 P W dmp c) ops in
    adjusts_sent s <= g_grant s /\ g_grant s <= g_cons s + g_disc s /\
    adjusts_sent s + sum (abox s) = g_grant s /\
    g_grant s + sofar s + g_lost s = g_cons s + g_disc s.
Proof.
  intros W0 P W dmp c ops H0 HW Hwf s. destruct (reach_inv W0 P W dmp c ops H0 HW Hwf) as (HI & _). fold s in HI.
  pose proof (i_cred _ _ HI). pose proof (i_adj _ _ HI). pose proof (i_sofar _ _ HI). pose proof (i_lost _ _ HI).
  pose proof (sum_nonneg _ (i_abox _ _ HI)). unfold adjusts_sent. lia.
Qed.
Print Assumptions C19_grant_le_consumed.

(* the sanitized sizes are what the statements above assume of them, for every input *)
Theorem C19_sanitize :
  forall d x, 32768 <= sanitize_window_size d x <= 4294967295 /\ 4096 <= sanitize_packet_size d x <= 4294967295.
Proof. intros d x. split; [apply sanitize_window_range | apply sanitize_packet_range]. Qed.
Print Assumptions C19_sanitize.

(* the side condition of C19_packet is needed: a peer advertising 1000 receives a 4032-byte message *)
Theorem C19_small_peer_packet_exceeded :
  let s := run (init 100000 1000 32768 32768 false) [OSend None 50000; OEmit 0] in
  elog s = [MData 4032].
Proof. vm_compute. reflexivity. Qed.
Print Assumptions C19_small_peer_packet_exceeded.

(* non-vacuity: a concrete well-formed history in which the window is exhausted, a send times out,
   the receiver reads, an adjust comes back and sending resumes *)
Example C19_example :
  let ops := [OSend None 40000; OSend (Some 1) 40000; OEmit 1; OEmit 0; ODeliver; ODeliver;
              ORecv false 5000; ORecv true 5000; OSend None 1; OEmitAdj 0; ODeliverAdj; OSend None 9000] in
  Forall op_wf ops /\
  let s := run (init 8000 32768 32768 32768 false) ops in
  (emitted s, g_res s, g_adjin s, ow s, g_cons s, g_grant s) = (8000, 13000, 5000, 0, 5000, 5000).
Proof. split; [repeat (apply Forall_cons; [cbn; lia|]); apply Forall_nil | vm_compute; reflexivity]. Qed.

(* non-vacuity with the combine / half-close ops: unread stderr data moved by set_combine_stderr(True) is
   credited exactly once, when the application reads it; a half-closed sender sends nothing more *)
Example C19_example_combine :
  let ops := [OSend (Some 1) 5000; OEmit 0; ODeliver; OCombine true; ORecv false 5000; OShutW; OSend None 10] in
  Forall op_wf ops /\
  let s := run (init 32768 32768 32768 32768 false) ops in
  (g_cons s, g_grant s, sofar s, bout s, berr s, emitted s) = (5000, 5000, 0, 0, 0, 5000).
Proof. split; [repeat (apply Forall_cons; [cbn; lia|]); apply Forall_nil | vm_compute; reflexivity]. Qed.
