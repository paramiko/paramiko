(* C42 — buffered file wrappers preserve stream content and line structure.
   cbf = BufferedFile (binary mode) over the channel-like stream `cstream`, whose read-chunk
   oracle `roracle` and partial-write oracle `woracle` are ARBITRARY lists (all theorems quantify
   over the whole state, hence over every chunking).  `logical f` = _rbuffer ++ bytes the stream
   has not delivered yet.  `fuel` bounds the model's loops; the hypotheses give a sufficient
   amount, so no result below is the OutOfFuel artefact. *)
From PV Require Import Bytes C42 C42_gen C42_proofs.
Open Scope Z_scope.

(* any mix of read(n), read(), readline(size), readlines(hint), next -- interleaved with writes,
   flushes, closes and calls the mode forbids -- returns, concatenated, exactly the prefix of the
   stream that was consumed: nothing lost, duplicated or reordered, for every chunking *)
Theorem C42_read_stream :
  forall (fuel : nat) (ops : list op) (f : cbf) (rs : list oresult) (f' : cbf),
    (length (logical f) < fuel)%nat -> 0 < bufsize f ->
    run_ops fuel f ops = (rs, f') ->
    logical f = concat (map result_bytes rs) ++ logical f'.
Proof.
  intros fuel ops. induction ops as [|o ops IH]; intros f rs f' Hf Hb H; cbn [run_ops] in H.
  - injection H as <- <-. reflexivity.
  - destruct (step fuel f o) as [x f1] eqn:E1.
    destruct (run_ops fuel f1 ops) as [xs f2] eqn:E2. injection H as <- <-.
    destruct (step_logical _ _ _ _ _ Hf Hb E1) as [HL Hb1].
    cbn [map concat]. rewrite <- app_assoc, <- (IH f1 xs f2); [exact HL| | |exact E2].
    + rewrite HL, app_length in Hf. lia.
    + now rewrite Hb1.
Qed.
Print Assumptions C42_read_stream.

(* each individual call returns exactly the specified next bytes *)
Theorem C42_read_exact :
  forall (fuel : nat) (f : cbf) (n : Z),
    (length (sdata (strm f)) < fuel)%nat -> 0 < bufsize f -> readable f -> 0 <= n ->
    exists f', bf_read c_sread fuel f (Some n) = (Ok (take n (logical f)), f') /\
               logical f = take n (logical f) ++ logical f'.
Proof.
  intros fuel f n Hf Hb [Hc Hr] Hn.
  destruct (read_n_spec _ _ _ _ c_sread_spec fuel f n I Hf Hb Hc Hr Hn) as (f' & E & P & _).
  now exists f'.
Qed.
Print Assumptions C42_read_exact.

Theorem C42_read_all_exact :
  forall (fuel : nat) (f : cbf),
    (length (sdata (strm f)) < fuel)%nat -> readable f ->
    exists f', bf_read c_sread fuel f None = (Ok (logical f), f') /\ logical f' = [].
Proof.
  intros fuel f Hf [Hc Hr].
  destruct (read_all_spec _ _ _ _ c_sread_spec fuel f None I Hf Hc Hr I) as (f' & E & _ & P).
  now exists f'.
Qed.
Print Assumptions C42_read_all_exact.

Theorem C42_readline_exact :
  forall (fuel : nat) (f : cbf) (size : option Z),
    (length (sdata (strm f)) < fuel)%nat -> 0 < bufsize f -> readable f ->
    exists f', bf_readline c_sread fuel f size = (Ok (line_spec size (logical f)), f') /\
               logical f = line_spec size (logical f) ++ logical f'.
Proof.
  intros fuel f size Hf Hb [Hc Hr].
  destruct (readline_spec _ _ _ _ c_sread_spec fuel f size I Hf Hb Hc Hr) as (f' & E & P & _).
  now exists f'.
Qed.
Print Assumptions C42_readline_exact.

(* a returned line (= line_spec size L by C42_readline_exact) is a prefix of the stream that ends
   at the FIRST newline, or is cut at `size` without containing a newline, or runs to EOF without
   a newline; and it never exceeds `size` *)
Theorem C42_lines :
  forall (size : option Z) (Lg : list Z),
    let r := line_spec size Lg in
    exists rest, Lg = r ++ rest /\
      ((exists body, r = body ++ [LF] /\ ~ In LF body) \/
       (~ In LF r /\ sized size = true /\ zlen r = szof size) \/
       (~ In LF r /\ rest = [])) /\
      (sized size = true -> zlen r <= szof size).
Proof.
  intros size Lg r. subst r. rewrite line_spec_eq.
  destruct (sized size) eqn:Es.
  - (* sized: the line is cut from the first `size` bytes *)
    assert (Hs : 0 <= szof size) by (destruct size; [apply Z.leb_le; exact Es|discriminate]).
    set (s := szof size) in *. pose proof (zlen_take s Lg Hs) as Hz.
    destruct (upto_lf_cases (take s Lg)) as [(body & rest & E1 & E2 & E3)|[E1 E2]].
    + exists (rest ++ drop s Lg). rewrite app_assoc, <- E3, take_drop.
      split; [reflexivity|]. split; [left; now exists body|]. intros _.
      apply (f_equal zlen) in E3. rewrite zlen_app in E3. pose proof (zlen_nonneg rest). lia.
    + exists (drop s Lg). rewrite E1, take_drop. split; [reflexivity|].
      split; [|intros _; lia]. right. destruct (Z_le_gt_dec s (zlen Lg)).
      * left. split; [exact E2|]. split; [reflexivity|lia].
      * right. split; [exact E2|]. apply drop_all. lia.
  - destruct (upto_lf_cases Lg) as [(body & rest & E1 & E2 & E3)|[E1 E2]].
    + exists rest. split; [exact E3|]. split; [left; now exists body|discriminate].
    + exists []. rewrite E1, app_nil_r. split; [reflexivity|]. split; [auto|discriminate].
Qed.
Print Assumptions C42_lines.

(* bytes delivered to the stream ++ write buffer = all data accepted by write(), in order, after
   every op sequence and for every partial-write behaviour of the stream (_write_all loops) *)
Theorem C42_write_complete :
  forall (fuel : nat) (ops : list op) (f : cbf) (rs : list oresult) (f' : cbf),
    (length (wbuf f) + wtotal ops < fuel)%nat -> winv f ->
    run_ops fuel f ops = (rs, f') ->
    delivered (strm f') ++ wbuf f' = (delivered (strm f) ++ wbuf f) ++ accepted ops rs.
Proof. intros fuel ops f rs f' H1 H2 H3. exact (proj1 (run_ops_wview fuel ops f rs f' H1 H2 H3)). Qed.
Print Assumptions C42_write_complete.

(* flush / close succeed and leave the buffer empty: with C42_write_complete, everything written
   has then reached the stream *)
Theorem C42_flush_empties :
  forall (fuel : nat) (f : cbf) (o : op) (r : oresult) (f' : cbf),
    (o = OFlush \/ o = OClose) -> (length (wbuf f) < fuel)%nat -> winv f ->
    step fuel f o = (r, f') ->
    r = RNone /\ wbuf f' = [] /\ delivered (strm f') = delivered (strm f) ++ wbuf f.
Proof.
  intros fuel f o r f' Ho Hf _ H. destruct (flush_spec fuel f Hf) as (f1 & E & W & D).
  destruct Ho; subst o; cbn [step] in H; unfold bf_close in H; rewrite E in H; injection H as <- <-; auto.
Qed.
Print Assumptions C42_flush_empties.

(* line-buffered mode: after every call the buffer holds no newline, i.e. (with
   C42_write_complete) everything through the last newline written has been delivered *)
Theorem C42_line_buffered :
  forall (fuel : nat) (ops : list op) (f : cbf) (rs : list oresult) (f' : cbf),
    (length (wbuf f) + wtotal ops < fuel)%nat -> winv f ->
    fl_buffered f = true -> fl_linebuf f = true -> has_lf (wbuf f) = false ->
    run_ops fuel f ops = (rs, f') -> has_lf (wbuf f') = false.
Proof.
  intros fuel ops f rs f' H1 H2 _ Hl Hn H3.
  exact (proj2 (proj2 (run_ops_wview fuel ops f rs f' H1 H2 H3)) Hl Hn).
Qed.
Print Assumptions C42_line_buffered.

(* the hypotheses hold for every freshly opened file (every mode, bufsize, stream and oracles) *)
Theorem C42_initial_state :
  forall (hr hw ha hp : bool) (bufsz size0 : Z) (s : cstream),
    let f := set_mode hr hw ha hp bufsz size0 s in
    0 < bufsize f /\ winv f /\ has_lf (wbuf f) = false /\ logical f = sdata s.
Proof. intros. split; [apply set_mode_bufsize|]. repeat split. Qed.
Print Assumptions C42_initial_state.

(* timeouts: whatever schedule of socket.timeout exceptions the stream's _read follows (efaults) and
   however it chunks, the bytes returned by any sequence of read(n) calls -- including the retries
   after a timeout -- followed by what is still unread are exactly the stream: an exception raised
   between two chunks of one read(n) loses nothing.  (read() and readline() under exceptions: see the
   known findings; not modelled.) *)
Theorem C42_read_n_stream_timeouts :
  forall (fuel : nat) (ns : list Z) (f : ebf) (rs : list (result (list Z))) (f' : ebf),
    erun fuel f ns = (rs, f') ->
    elogical f = concat (map ok_bytes rs) ++ elogical f'.
Proof.
  intros fuel ns. induction ns as [|n ns IH]; intros f rs f' H; cbn [erun] in H.
  - injection H as <- <-. reflexivity.
  - destruct (bf_read_ev fuel f n) as [x f1] eqn:E1. destruct (erun fuel f1 ns) as [xs f2] eqn:E2.
    injection H as <- <-. cbn [map concat]. rewrite <- app_assoc, <- (IH f1 xs f2 E2).
    exact (read_ev_pres _ _ _ _ _ E1).
Qed.
Print Assumptions C42_read_n_stream_timeouts.

Example C42_example_timeouts :
  let f0 : ebf := set_mode true false false false 0 0
                    (mkes (mkcs [1;2;3;4;5;6;7] [2;2;2;2] [] []) false [false; true; false; true]) in
  fst (erun 20 f0 [5; 5; 5; 5]) = [Raise SocketTimeout; Raise SocketTimeout; Ok [1;2;3;4;5]; Ok [6;7]].
Proof. reflexivity. Qed.

(* the model's constants and its reading of the mode string / bufsize argument are those of the
   source: _DEFAULT_BUFSIZE, the linefeed byte, and -- for every mode string, 11 bufsize arguments and
   two file sizes -- the FLAG_* bits, _bufsize and initial _pos computed by the real _set_mode
   (table regenerated from paramiko/file.py on every run by gen/c42.py) *)
Theorem C42_source_constants :
  DEFAULT_BUFSIZE = G_DEFAULT_BUFSIZE /\ LF = G_LF /\
  forallb set_mode_row_ok G_set_mode_table = true /\ (100 < length G_set_mode_table)%nat.
Proof. split; [reflexivity|]. split; [reflexivity|]. split; [vm_compute; reflexivity|vm_compute; lia]. Qed.
Print Assumptions C42_source_constants.

(* non-vacuity: a concrete run -- chunked reads of 1..2 bytes, partial writes of 1..3 bytes,
   line-buffered "r+" file -- meets the hypotheses and shows the stated results *)
Example C42_example :
  let f0 : cbf := set_mode true false false true 1 0 (mkcs [97;98;10;99;100;10;101] [1;2;1;1] [1;3;2] []) in
  let ops := [OReadline None; ORead 1; OWrite [120;10;121]; OReadline (Some 1); OReadAll; OFlush] in
  (length (logical f0) < 20)%nat /\ (length (wbuf f0) + wtotal ops < 20)%nat /\
  fst (run_ops 20 f0 ops) =
    [RBytes [97;98;10]; RBytes [99]; RNone; RBytes [100]; RBytes [10;101]; RNone] /\
  delivered (strm (snd (run_ops 20 f0 ops))) = [120;10;121].
Proof. vm_compute. repeat split; lia. Qed.
