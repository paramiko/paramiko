(* C13 -- blocking calls return once the connection ends.

   PARTIAL by nature: the theorems are about the wake-up bookkeeping (which facts each way of
   ending the connection establishes, which notifications it issues and in which order, what each
   blocking API waits on and re-tests) and about the EOF-detection loops.  That the operating
   system really delivers a notify / set / timeout, and real time, are outside the model; they are
   exercised by the watchdog runs of harness/c13.py on the real code. *)
From Coq Require Import ZArith List Bool Lia ZifyBool.
From PV Require Import Bytes WakeGraph C13_gen C13 C13_proofs.
Import ListNotations.
Open Scope Z_scope.

(* A loop "event.wait(<= period); if not self.active: raise; if event.is_set(): break" over an
   arbitrary environment trace (duration of every wait, value of `active` and of the event seen
   after it): if every check made at or after time T reads active = False, and some check is made
   at or after T, the loop has left -- by the raise or by the break -- no later than T + period. *)
Theorem C13_polling_returns :
  forall (trace : list tick) (period T : Z),
    0 <= T ->
    (forall t, In t trace -> 0 <= t_dur t <= period) ->
    (forall pre t post, trace = pre ++ t :: post -> T <= time_after pre 0 + t_dur t -> t_active t = false) ->
    (exists pre t post, trace = pre ++ t :: post /\ T <= time_after pre 0 + t_dur t) ->
    exists j at_ms,
      (poll trace 0 0 = PollRaised j at_ms \/ poll trace 0 0 = PollBroke j at_ms) /\ at_ms <= T + period.
Proof. intros. now apply poll_gen. Qed.
Print Assumptions C13_polling_returns.

(* For every blocking API of the table generated from the source, every way the connection ends,
   and EVERY interleaving of the caller's steps with the actions of the thread that ends the
   connection (so: called before, during or after the loss): once those actions are done, the
   caller is out of its wait after at most two steps of its own. *)
Theorem C13_every_api :
  forall r e, In r api_rows -> In e endings ->
  forall sched st w,
    run r sched (ending_actions e) [] WPre = ([], st, w) -> settle r st w = WDone.
Proof.
  intros r e Hr He. apply wake_sound. exact (all_ok_In _ _ r e all_ok_current Hr He).
Qed.
Print Assumptions C13_every_api.

(* the same with any caller-supplied timeout (Channel.settimeout(t), accept(t)) *)
Theorem C13_every_api_timeout :
  forall r e t, In r api_rows -> In e endings ->
  forall sched st w,
    run (with_timeout r t) sched (ending_actions e) [] WPre = ([], st, w) ->
    settle (with_timeout r t) st w = WDone.
Proof.
  intros r e t Hr He. apply wake_sound, ok_with_timeout. exact (all_ok_In _ _ r e all_ok_current Hr He).
Qed.
Print Assumptions C13_every_api_timeout.

(* the criterion is sufficient for any table (this is the induction; the two above instantiate it
   on the generated table by computation) *)
Theorem C13_wake_sound :
  forall r acts st0, ok r acts st0 = true ->
  forall sched st w, run r sched acts st0 WPre = ([], st, w) -> settle r st w = WDone.
Proof. exact wake_sound. Qed.
Print Assumptions C13_wake_sound.

(* Packetizer.read_all: after ANY prefix of socket results that leaves the loop still waiting for
   bytes (partial reads, timeouts, EAGAIN), a recv() returning b"" raises EOFError *)
Theorem C13_read_all_eof :
  forall rem prefix n cr e rest,
    read_all rem prefix n cr = Raise OutOfFuel ->
    r_res e = RData [] ->
    read_all rem (prefix ++ e :: rest) n cr = Raise EOFErr.
Proof. intros rem prefix n cr e rest. unfold read_all. apply read_loop_eof. Qed.
Print Assumptions C13_read_all_eof.

(* ProxyCommand.recv (as repaired): when os.read returns b"" -- the process closed its stdout --
   the loop ends with a short (possibly empty) read instead of spinning *)
Theorem C13_proxy_recv_eof :
  forall prefix size buf rest,
    proxy_recv prefix size buf = Raise OutOfFuel ->
    exists b, proxy_recv (prefix ++ PRead [] :: rest) size buf = Ok b /\ Z.of_nat (length b) < size.
Proof.
  intros prefix size buf rest H.
  destruct (proxy_recv_eof prefix size buf rest H) as (b & Hb & Hl & _). now exists b.
Qed.
Print Assumptions C13_proxy_recv_eof.

(* ... and the Packetizer turns that empty read into EOFError: a dead proxy process ends the
   connection like a closed socket *)
Theorem C13_proxy_exit_is_eof :
  forall rem prefix n cr pprefix size rest hs cl nr,
    read_all rem prefix n cr = Raise OutOfFuel ->
    proxy_recv pprefix size [] = Raise OutOfFuel ->
    (forall s, In s pprefix -> s = PNotReady) ->
    exists b, proxy_recv (pprefix ++ PRead [] :: rest) size [] = Ok b /\ b = [] /\
      read_all rem (prefix ++ [mk_rd (RData b) hs cl nr]) n cr = Raise EOFErr.
Proof.
  intros rem prefix n cr pprefix size rest hs cl nr Hr Hp Hall.
  destruct (proxy_recv_eof pprefix size [] rest Hp) as (b & Hb & _ & Hn). rewrite (Hn Hall) in Hb.
  exists []. split; [exact Hb|]. split; [reflexivity|].
  apply C13_read_all_eof; [exact Hr | reflexivity].
Qed.
Print Assumptions C13_proxy_exit_is_eof.

(* The code before the repairs (kept as v0 tables in the model), for the record:
   accept() called after a local close() blocks for ever; a second accept() waiter is not woken by
   the single notify() of run()'s epilogue; ProxyCommand.recv at end of file never terminates. *)
Theorem C13_accept_v0_refuted :
  (exists sched st w,
     run accept_row_v0 sched (actions_with fn_body_v0 LocalClose) [] WPre = ([], st, w) /\
     settle accept_row_v0 st w = WWait false) /\
  (exists sched st w,
     run accept_row_v0 sched (actions_with fn_body_v0 PeerClose) [] WPre = ([], st, w) /\
     settle accept_row_v0 st w = WWait false).
Proof.
  split.
  - exists (repeat true 40). eexists. eexists. vm_compute. split; reflexivity.
  - exists (false :: repeat true 40). eexists. eexists. vm_compute. split; reflexivity.
Qed.
Print Assumptions C13_accept_v0_refuted.

Theorem C13_proxy_recv_v0_diverges :
  forall k size, 0 < size -> proxy_recv_v0 (repeat (PRead []) k) size [] = Raise OutOfFuel.
Proof.
  induction k as [|k IH]; intros size Hs; cbn [repeat proxy_recv_v0 length].
  - destruct (size <=? Z.of_nat 0) eqn:E; [lia | reflexivity].
  - destruct (size <=? Z.of_nat 0) eqn:E; [lia|]. cbn [app]. now apply IH.
Qed.
Print Assumptions C13_proxy_recv_v0_diverges.

(* the table is not empty and the hypotheses of C13_every_api are met by concrete schedules:
   recv blocked before a peer close, and accept called after a local close *)
Example C13_example_schedules :
  (length api_rows = 12)%nat /\
  (exists r st w, In r api_rows /\ a_api r = ApiRecv /\
     run r (false :: repeat true 30) (ending_actions PeerClose) [] WPre = ([], st, w)) /\
  (exists r st w, In r api_rows /\ a_api r = ApiAccept /\
     run r (repeat true 30 ++ [false]) (ending_actions LocalClose) [] WPre = ([], st, w)).
Proof.
  split; [reflexivity|]. split.
  - eexists. eexists. eexists. split; [do 8 right; left; reflexivity|]. split; vm_compute; reflexivity.
  - eexists. eexists. eexists. split; [do 7 right; left; reflexivity|]. split; vm_compute; reflexivity.
Qed.

(* a polling trace meeting the hypotheses of C13_polling_returns: active drops at T = 250 ms *)
Example C13_example_poll :
  let trace := [mk_tick 100 true false; mk_tick 100 true false; mk_tick 100 false false] in
  poll trace 0 0 = PollRaised 2 300 /\ 300 <= 250 + 100 /\
  (exists pre t post, trace = pre ++ t :: post /\ 250 <= time_after pre 0 + t_dur t).
Proof.
  cbn. split; [reflexivity|]. split; [discriminate|].
  exists [mk_tick 100 true false; mk_tick 100 true false], (mk_tick 100 false false), [].
  split; [reflexivity|]. cbn. discriminate.
Qed.

(* read_all still waiting after a partial read and a timeout, then end of file *)
Example C13_example_read_all :
  let prefix := [mk_rd (RData [1; 2]) false false false; mk_rd RTimeout false false false] in
  read_all [] prefix 5 false = Raise OutOfFuel /\
  read_all [] (prefix ++ [mk_rd (RData []) false false false]) 5 false = Raise EOFErr.
Proof. split; reflexivity. Qed.
