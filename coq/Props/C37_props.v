(* C37 — malformed private key files fail with SSHException (or PasswordRequiredException) only.
   PARTIAL by nature: base64, the text layer (bytes -> lines), UTF-8 decoding, bcrypt, the ciphers,
   DER loading, RSA number validation, EC / Ed25519 key derivation are oracles, universally
   quantified; what is proved is paramiko's own line / byte level parsing after repairs fixes/C37-1..7. *)
From PV Require Import Bytes C39 C37 C37_proofs.
Open Scope Z_scope.

(* for EVERY file content (any byte string), every password (none / empty / any), and all three key classes:
   loading yields a key, SSHException or PasswordRequiredException - nothing else - provided the library
   calls raise only their documented ValueError family (which the repaired code converts) *)
Theorem C37_only_sshexc :
  forall b64 utf8_ok pem_decrypt ossh_decrypt ed_cipher_known ed_decrypt pk_of_seed der_load
         rsa_numbers_ok ec_derive_ok readlines,
    (forall a b c d k, pem_decrypt a b c d <> DOther k) ->
    (forall a b c r d k, ossh_decrypt a b c r d <> DOther k) ->
    (forall a b c r d k, ed_decrypt a b c r d <> DOther k) ->
    (forall x k, der_load x <> DerOther k) ->
    forall (file : list Z) (password : option (list Z)),
      allowed (load_rsa b64 pem_decrypt ossh_decrypt der_load rsa_numbers_ok readlines file password) /\
      allowed (load_ecdsa b64 pem_decrypt ossh_decrypt der_load ec_derive_ok readlines file password) /\
      allowed (load_ed25519 b64 utf8_ok pem_decrypt ossh_decrypt ed_cipher_known ed_decrypt pk_of_seed
                            readlines file password).
Proof.
  intros b64 utf8_ok pem_decrypt ossh_decrypt ed_cipher_known ed_decrypt pk_of_seed der_load
         rsa_numbers_ok ec_derive_ok readlines Hpem Hossh Hed Hder file password.
  unfold load_rsa, load_ecdsa, load_ed25519.
  destruct (readlines file) as [lines|]; [|repeat split; left; reflexivity].
  repeat split; (apply allowed_bind; [apply al_read_private_key; assumption|]).
  - intros fd. apply al_rsa_decode, Hder.
  - intros fd. apply al_ecdsa_decode, Hder.
  - intros [f d]. apply al_ed_parse, Hed.
Qed.
Print Assumptions C37_only_sshexc.

(* _unpad_openssh on its own, every byte string incl. the empty one and padding longer than the data *)
Theorem C37_unpad_total : forall d, allowed (unpad_openssh d).
Proof. exact al_unpad. Qed.
Print Assumptions C37_unpad_total.

(* an Ed25519 private section that parses yields seeds of 32 bytes whose derived public key is the one the
   file lists: the halves of a loaded key agree (RSA: the library validates the numbers; ECDSA: the public
   half is derived from the private one - both outside the model) *)
Theorem C37_ed25519_halves_agree :
  forall utf8_ok pk_of_seed n pubs buf pos seeds,
    ed_priv_loop utf8_ok pk_of_seed n pubs buf pos = Ok seeds ->
    length seeds = n /\
    forall i seed, nth_error seeds i = Some seed ->
      length seed = 32%nat /\ nth_error pubs i = Some (pk_of_seed seed).
Proof.
  intros utf8_ok pk_of_seed.
  induction n as [|n IH]; intros pubs buf pos seeds H.
  - injection H as <-. split; [reflexivity|]. intros [|i] seed Hn; discriminate.
  - destruct (priv_loop_round utf8_ok pk_of_seed n pubs buf pos)
      as [(e & E & _) | (seed0 & pubs' & pos' & Hl0 & -> & E)]; rewrite E in H; [discriminate|].
    destruct (ed_priv_loop utf8_ok pk_of_seed n pubs' buf pos') as [l|] eqn:Er; [|discriminate].
    cbn [bind] in H. injection H as <-.
    destruct (IH _ _ _ _ Er) as [Hl Hi].
    split; [cbn [length]; rewrite Hl; reflexivity|].
    intros [|i] seed Hn; cbn [nth_error] in *; [|apply Hi; exact Hn].
    injection Hn as <-. split; [exact Hl0 | reflexivity].
Qed.
Print Assumptions C37_ed25519_halves_agree.

(* non-vacuity: oracles meeting the hypotheses exist, and the model both rejects and accepts *)
Example C37_example :
  let b64 := fun _ : list Z => Some (s_magic ++ [0;0;0;4;110;111;110;101; 0;0;0;4;110;111;110;101; 0;0;0;0; 0;0;0;1;
                                                 0;0;0;0; 0;0;0;15; 0;0;0;7; 0;0;0;7; 0;0;0;0; 9;1;2]) in
  read_openssh b64 (fun _ _ _ _ _ => DBad) [] None = Ok [9] /\
  unpad_openssh [] = Raise SSHExc /\ unpad_openssh [1; 5] = Raise SSHExc /\
  unpad_openssh [9; 1; 2] = Ok [9] /\
  run_scan (0, [[45;45;45;45;45;66;69;71;73;78;32;82;83;65;32;80;82;73;86;65;84;69;32;75;69;89;45;45;45;45;45;10]; [65;10]]) = [0; 1].
Proof. cbv zeta. repeat split; vm_compute; reflexivity. Qed.
