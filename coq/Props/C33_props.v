(* C33 — SFTP file attributes survive encoding and decoding.

   "Same extended attributes" is meant observably: the extended map is compared as the ordered
   list of (key bytes, value bytes) pairs, i.e. what add_string writes (str is UTF-8 encoded) and
   what get_string returns (bytes); _unpack never turns them back into str.  The hypothesis
   NoDup (map fst (a_ext a)) says the dict's keys are distinct as bytes (a dict holding both 'k'
   and b'k' writes the same key twice and cannot round-trip). *)
From PV Require Import Bytes C39 C33_gen C33 C33_proofs.
Open Scope Z_scope.

(* Whatever follows the attribute block in the message: decoding the encoding of `a` consumes
   exactly the encoding, stores flags = flags_of a, and yields `normalize a` — every field
   that is present comes back with its value (64-bit size, 32-bit mode, uid/gid and
   atime/mtime as pairs, the extended pairs in order), every absent field comes back absent,
   and a uid without gid / an atime without mtime (which _pack does not write: not representable
   on the wire) comes back absent. *)
Theorem C33_roundtrip :
  forall (a : attrs) (bs rest : list Z),
    NoDup (map fst (a_ext a)) -> pack a = Ok bs ->
    unpack (bs ++ rest) 0 = Ok (flags_of a, normalize a, length bs).
Proof. exact roundtrip. Qed.
Print Assumptions C33_roundtrip.

(* for an attribute set whose ids and times come in pairs the decoded object is the original *)
Theorem C33_roundtrip_paired :
  forall (a : attrs) (bs rest : list Z),
    paired a = true -> NoDup (map fst (a_ext a)) -> pack a = Ok bs ->
    unpack (bs ++ rest) 0 = Ok (flags_of a, a, length bs).
Proof.
  intros a bs rest Hp Hnd He.
  rewrite (roundtrip a bs rest Hnd He), (normalize_paired a Hp). reflexivity.
Qed.
Print Assumptions C33_roundtrip_paired.

(* what normalize does, field by field: absent stays absent, unpaired becomes absent,
   everything else is unchanged *)
Theorem C33_absent_stays_absent :
  forall a : attrs,
  a_size (normalize a) = a_size a /\ a_mode (normalize a) = a_mode a /\ a_ext (normalize a) = a_ext a /\
  (a_uid a = None \/ a_gid a = None -> a_uid (normalize a) = None /\ a_gid (normalize a) = None) /\
  (a_atime a = None \/ a_mtime a = None -> a_atime (normalize a) = None /\ a_mtime (normalize a) = None) /\
  (a_uid a <> None -> a_gid a <> None ->
     a_uid (normalize a) = a_uid a /\ a_gid (normalize a) = a_gid a) /\
  (a_atime a <> None -> a_mtime a <> None ->
     a_atime (normalize a) = a_atime a /\ a_mtime (normalize a) = a_mtime a).
Proof.
  intros a.
  destruct (pair_norm (a_uid a) (a_gid a)) as [U1 U2].
  destruct (pair_norm (a_atime a) (a_mtime a)) as [T1 T2].
  split; [reflexivity|]. split; [reflexivity|]. split; [reflexivity|].
  split; [exact U1|]. split; [exact T1|]. split; [exact U2 | exact T2].
Qed.
Print Assumptions C33_absent_stays_absent.

(* the flags word is exactly the set of fields that are written *)
Theorem C33_flags_exact :
  forall a : attrs,
  flags_of a =
  (if is_some (a_size a) then FLAG_SIZE else 0) +
  (if is_some (a_uid a) && is_some (a_gid a) then FLAG_UIDGID else 0) +
  (if is_some (a_mode a) then FLAG_PERMISSIONS else 0) +
  (if is_some (a_atime a) && is_some (a_mtime a) then FLAG_AMTIME else 0) +
  (if nonempty (a_ext a) then FLAG_EXTENDED else 0).
Proof. exact flags_exact. Qed.
Print Assumptions C33_flags_exact.

(* FLAG_* are regenerated from paramiko/sftp_attr.py on every run (Gen/C33_gen.v); they are the
   five distinct bits of the SFTP draft (editing one in the source breaks this and the sum above) *)
Theorem C33_flag_values :
  FLAG_SIZE = 1 /\ FLAG_UIDGID = 2 /\ FLAG_PERMISSIONS = 4 /\ FLAG_AMTIME = 8 /\ FLAG_EXTENDED = 2147483648.
Proof. repeat split; reflexivity. Qed.
Print Assumptions C33_flag_values.

(* and the decoder's tests `flags & FLAG` recover exactly that set *)
Theorem C33_flags_tests :
  forall a : attrs,
  has (flags_of a) FLAG_SIZE = is_some (a_size a) /\
  has (flags_of a) FLAG_UIDGID = is_some (a_uid a) && is_some (a_gid a) /\
  has (flags_of a) FLAG_PERMISSIONS = is_some (a_mode a) /\
  has (flags_of a) FLAG_AMTIME = is_some (a_atime a) && is_some (a_mtime a) /\
  has (flags_of a) FLAG_EXTENDED = nonempty (a_ext a).
Proof. exact flags_has. Qed.
Print Assumptions C33_flags_tests.

(* the hypothesis `pack a = Ok bs` of the round trip is met by every attribute set whose written
   values fit their wire widths (64-bit size, 32-bit ids / mode / times, string lengths) *)
Theorem C33_pack_total :
  forall a : attrs, in_range a = true -> exists bs, pack a = Ok bs.
Proof. exact pack_total. Qed.
Print Assumptions C33_pack_total.

(* The object keeps _flags between calls.  _pack is a function of the attribute fields only: the
   bytes written and the flags held afterwards do not depend on the flags held before *)
Theorem C33_pack_ignores_prior_flags :
  forall (p1 p2 : Z) (a : attrs),
    pack_obj p1 a = pack_obj p2 a /\ pack_obj p1 a = (pack a, flags_of a).
Proof. intros p1 p2 a. split; reflexivity. Qed.
Print Assumptions C33_pack_ignores_prior_flags.

(* nor on whether the object was rendered (str / repr / asbytes, a listing entry's longname) before *)
Theorem C33_pack_after_render :
  forall (prior : Z) (a : attrs),
    pack_obj (fst (render_obj (prior, a))) (snd (render_obj (prior, a))) = (pack a, flags_of a).
Proof. intros prior a. unfold render_obj. destruct G_RENDER_READONLY; reflexivity. Qed.
Print Assumptions C33_pack_after_render.

(* hence the round trip for an object with any history (decoded or encoded before, then edited) *)
Theorem C33_roundtrip_any_history :
  forall (prior : Z) (a : attrs) (bs rest : list Z),
    NoDup (map fst (a_ext a)) -> fst (pack_obj prior a) = Ok bs ->
    unpack (bs ++ rest) 0 = Ok (snd (pack_obj prior a), normalize a, length bs).
Proof. intros prior a bs rest Hnd Hp. exact (roundtrip a bs rest Hnd Hp). Qed.
Print Assumptions C33_roundtrip_any_history.

(* decode anything, replace the fields, encode, decode: the new fields and exactly their flags *)
Theorem C33_decode_edit_encode :
  forall (buf : list Z) (pos : nat) (fl : Z) (a : attrs) (p : nat) (a' : attrs) (bs rest : list Z),
    unpack buf pos = Ok (fl, a, p) ->
    NoDup (map fst (a_ext a')) ->
    fst (pack_obj fl a') = Ok bs ->
    unpack (bs ++ rest) 0 = Ok (flags_of a', normalize a', length bs).
Proof. intros buf pos fl a p a' bs rest _ Hnd Hp. exact (roundtrip a' bs rest Hnd Hp). Qed.
Print Assumptions C33_decode_edit_encode.

(* a _pack that does not start with self._flags = 0 leaks the prior flags *)
Theorem C33_noreset_refuted :
  let empty := MkAttrs None None None None None None [] in
  pack_obj FLAG_EXTENDED empty = (Ok [0; 0; 0; 0], 0) /\
  pack_obj_noreset FLAG_EXTENDED empty = (Ok [128; 0; 0; 0; 0; 0; 0; 0], FLAG_EXTENDED) /\
  pack_obj_noreset FLAG_AMTIME empty = (Raise TypeErr, FLAG_AMTIME) /\
  exists prior a, pack_obj_noreset prior a <> pack_obj prior a.
Proof.
  cbv zeta. repeat split.
  exists FLAG_EXTENDED, (MkAttrs None None None None None None []). vm_compute. discriminate.
Qed.
Print Assumptions C33_noreset_refuted.

(* the code before the repair (self.attr[msg.get_string()] = msg.get_string(), right-hand side
   evaluated first) returns every extended pair with key and value exchanged *)
Theorem C33_v0_swap_refuted :
  exists a bs a', pack a = Ok bs /\ NoDup (map fst (a_ext a)) /\ paired a = true /\
    unpack_v0 bs 0 = Ok (flags_of a, a', length bs) /\ a' <> a /\
    a_ext a' = map (fun kv => (snd kv, fst kv)) (a_ext a).
Proof.
  exists (MkAttrs None None None None None None [([107; 49], [118; 49])]).
  eexists. eexists. split; [vm_compute; reflexivity|].
  split; [cbn; constructor; [intros []|constructor]|].
  split; [reflexivity|].
  split; [vm_compute; reflexivity|].
  split; [discriminate|reflexivity].
Qed.
Print Assumptions C33_v0_swap_refuted.

(* the guarded _unpack (if count > len(msg.get_remainder()) // 8: raise SSHException) refuses a pair
   count the message cannot hold before the loop runs; `unpack` is this code exactly when gen/c33.py
   finds the guard in the source (G_COUNT_BOUNDED), and the round trip above holds either way *)
Theorem C33_count_guard :
  forall (buf : list Z) (pos : nat),
  let '(fl, p0) := get_int buf pos in
  let '(_, p1) := dec_size fl buf p0 in
  let '(_, _, p2) := dec_pair fl FLAG_UIDGID buf p1 in
  let '(_, p3) := dec_mode fl buf p2 in
  let '(_, _, p4) := dec_pair fl FLAG_AMTIME buf p3 in
  has fl FLAG_EXTENDED = true ->
  fst (get_int buf p4) > Z.of_nat (length (skipn (snd (get_int buf p4)) buf)) / 8 ->
  unpack_gen true false buf pos = Raise SSHExc.
Proof.
  intros buf pos. unfold unpack_gen.
  destruct (get_int buf pos) as [fl p0]. destruct (dec_size fl buf p0) as [sz p1].
  destruct (dec_pair fl FLAG_UIDGID buf p1) as [[u g] p2]. destruct (dec_mode fl buf p2) as [md p3].
  destruct (dec_pair fl FLAG_AMTIME buf p3) as [[at_ mt] p4].
  intros Hext Hgt. unfold dec_ext. rewrite Hext.
  destruct (get_int buf p4) as [count q]. cbn [fst snd] in Hgt.
  apply Z.gt_lt in Hgt. apply Z.gtb_lt in Hgt. cbn [andb]. rewrite Hgt. reflexivity.
Qed.
Print Assumptions C33_count_guard.

(* non-vacuity: a concrete attribute set with every field present, boundary values and two
   extended pairs meets the hypotheses *)
Example C33_example :
  let a := MkAttrs (Some (2 ^ 64 - 1)) (Some 0) (Some (2 ^ 32 - 1)) (Some 33188) (Some 1) (Some (2 ^ 31))
                   [([107; 49], [118; 49]); ([], [0; 255])] in
  in_range a = true /\ paired a = true /\ NoDup (map fst (a_ext a)) /\ exists bs, pack a = Ok bs.
Proof.
  cbv zeta. split; [reflexivity|]. split; [reflexivity|]. split.
  - cbn. constructor; [intros [H|[]]; discriminate H|]. constructor; [intros []|constructor].
  - eexists. vm_compute. reflexivity.
Qed.
