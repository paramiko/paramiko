(* C31 — SFTP attribute changes have their local-filesystem meaning.
   The property statements; what does not hold by evaluating the model on the request follows
   from the lemmas of Proofs/C31_proofs.v. *)
From Coq Require Import Lia.
From PV Require Import Bytes C31_gen C31 C31_proofs.
Open Scope Z_scope.

(* chmod / chown / utime / truncate requests (by path: setstat, by handle: fsetstat; both run
   set_file_attr) have exactly the effect of the corresponding os.* call on the served file *)
Theorem C31_chmod : forall now f m, set_file_attr now f (req_chmod m) = os_chmod f m.
Proof. reflexivity. Qed.
Print Assumptions C31_chmod.

Theorem C31_chown : forall now f u g, set_file_attr now f (req_chown u g) = os_chown f u g.
Proof. reflexivity. Qed.
Print Assumptions C31_chown.

Theorem C31_utime : forall now f t1 t2, set_file_attr now f (req_utime t1 t2) = os_utime f t1 t2.
Proof. reflexivity. Qed.
Print Assumptions C31_utime.

Theorem C31_truncate : forall now f n, set_file_attr now f (req_truncate n) = os_truncate now f n.
Proof. reflexivity. Qed.
Print Assumptions C31_truncate.

(* truncating keeps the leading bytes, extending pads with zeros *)
Theorem C31_truncate_keeps_prefix :
  forall now f n,
  0 <= n ->
  let d := f_data f in
  let d' := f_data (set_file_attr now f (req_truncate n)) in
  d' = firstn (Z.to_nat n) d ++ repeat 0 (Z.to_nat n - length d) /\
  Z.of_nat (length d') = n /\
  (forall i, (i < Z.to_nat n)%nat -> (i < length d)%nat -> nth i d' 0 = nth i d 0) /\
  (forall i, (length d <= i)%nat -> nth i d' 0 = 0) /\
  (n <= Z.of_nat (length d) -> d' = firstn (Z.to_nat n) d) /\
  (Z.of_nat (length d) <= n -> d' = d ++ repeat 0 (Z.to_nat n - length d)).
Proof.
  intros now f n Hn d d'. subst d d'. rewrite C31_truncate. cbn [os_truncate f_data].
  split; [reflexivity|]. split; [apply resize_length; exact Hn|].
  split; [intros i; apply resize_nth_kept|]. split; [intros i; apply resize_nth_pad|].
  split; [intros H; apply resize_shrink; lia | apply resize_extend].
Qed.
Print Assumptions C31_truncate_keeps_prefix.

Theorem C31_truncate_rest_unchanged :
  forall now f n,
  let f' := set_file_attr now f (req_truncate n) in
  f_mode f' = f_mode f /\ f_uid f' = f_uid f /\ f_gid f' = f_gid f /\ f_atime f' = f_atime f.
Proof. intros now f n. rewrite C31_truncate. repeat split. Qed.
Print Assumptions C31_truncate_rest_unchanged.

(* any attribute record (any combination of flags), field by field.  Note the order of the
   source's steps: a request carrying both times and a size ends with mtime = time of the resize. *)
Theorem C31_fields :
  forall now f a,
  let f' := set_file_attr now f a in
  f_data f' = (if has a FLAG_SIZE then resize (f_data f) (a_size a) else f_data f) /\
  f_mode f' = (if has a FLAG_PERMISSIONS then Z.land (a_mode a) 4095 else f_mode f) /\
  f_uid f' = (if has a FLAG_UIDGID then a_uid a else f_uid f) /\
  f_gid f' = (if has a FLAG_UIDGID then a_gid a else f_gid f) /\
  f_atime f' = (if has a FLAG_AMTIME then a_atime a else f_atime f) /\
  f_mtime f' = (if has a FLAG_SIZE then now
                else if has a FLAG_AMTIME then a_mtime a else f_mtime f).
Proof. exact fields. Qed.
Print Assumptions C31_fields.

(* steps that were not requested leave their fields unchanged *)
Theorem C31_unrequested_unchanged :
  forall now f a,
  let f' := set_file_attr now f a in
  (has a FLAG_SIZE = false -> f_data f' = f_data f) /\
  (has a FLAG_PERMISSIONS = false -> f_mode f' = f_mode f) /\
  (has a FLAG_UIDGID = false -> f_uid f' = f_uid f /\ f_gid f' = f_gid f) /\
  (has a FLAG_AMTIME = false -> f_atime f' = f_atime f) /\
  (has a FLAG_AMTIME = false -> has a FLAG_SIZE = false -> f_mtime f' = f_mtime f).
Proof.
  intros now f a. destruct (fields now f a) as (Hd & Hm & Hu & Hg & Ha & Ht). cbv zeta in *.
  split; [intros E; now rewrite Hd, E|]. split; [intros E; now rewrite Hm, E|].
  split; [intros E; now rewrite Hu, Hg, E|]. split; [intros E; now rewrite Ha, E|].
  intros E1 E2. now rewrite Ht, E1, E2.
Qed.
Print Assumptions C31_unrequested_unchanged.

Theorem C31_by_handle_same : forall now f a, fsetstat now f a = setstat now f a.
Proof. reflexivity. Qed.
Print Assumptions C31_by_handle_same.

(* sequences: any list of chmod/chown/utime/truncate requests (by path or by handle), interleaved
   with arbitrary other changes g : file -> file (writes, touches by other processes), has the
   effect of the corresponding sequence of os.* calls - a request never repeats an earlier one *)
Theorem C31_sequence : forall evs f, fold_left sftp_event evs f = fold_left os_event evs f.
Proof.
  induction evs as [|e evs IH]; intros f; [reflexivity|].
  cbn [fold_left]. rewrite sftp_event_os_event. apply IH.
Qed.
Print Assumptions C31_sequence.

Theorem C31_later_request_independent :
  forall now1 f n now2 at2 off b m,
  let f1 := fsetstat now1 f (req_truncate n) in
  let f2 := env_write at2 now2 f1 off b in
  let f3 := fsetstat 0 f2 (req_chmod m) in
  f_data f3 = f_data f2 /\ f_mtime f3 = f_mtime f2 /\ f_atime f3 = f_atime f2.
Proof. repeat split. Qed.
Print Assumptions C31_later_request_independent.

(* every kind of target: a regular file (also when named through a symbolic link - the os.* calls
   follow links, the link itself is not a node of the model), a directory, a missing name (also a
   dangling link, a name under a missing directory, a name removed since the handle was opened):
   new state AND status of the request equal those of the os.* call *)
Theorem C31_node_chmod : forall now n m, set_node_attr now n (req_chmod m) = os_chmod_node n m.
Proof. intros now []; reflexivity. Qed.
Print Assumptions C31_node_chmod.
Theorem C31_node_chown : forall now n u g, set_node_attr now n (req_chown u g) = os_chown_node n u g.
Proof. intros now []; reflexivity. Qed.
Print Assumptions C31_node_chown.
Theorem C31_node_utime : forall now n t1 t2, set_node_attr now n (req_utime t1 t2) = os_utime_node n t1 t2.
Proof. intros now []; reflexivity. Qed.
Print Assumptions C31_node_utime.
Theorem C31_node_truncate : forall now n k, set_node_attr now n (req_truncate k) = os_truncate_node now n k.
Proof. intros now []; reflexivity. Qed.
Print Assumptions C31_node_truncate.

(* success is only reported when every requested step was applied *)
Theorem C31_ok_only_if_applied :
  forall now n a n',
  set_node_attr now n a = (n', SFTP_OK) ->
  match n with
  | NFile f => n' = NFile (set_file_attr now f a)
  | NDir f => has a FLAG_SIZE = false /\ n' = NDir (step_utime a (step_chown a (step_chmod a f)))
  | NMissing => any_step a = false
  end.
Proof.
  intros now [f|f|] a n'; cbn.
  - now intros [= <-].
  - destruct (has a FLAG_SIZE); intros [= <-]. now split.
  - destruct (any_step a); intros [=]. reflexivity.
Qed.
Print Assumptions C31_ok_only_if_applied.

(* the handle table of a session: in every reachable state a new handle name is fresh, and a live
   handle keeps naming the file it was opened on whatever else is opened or closed meanwhile - so an
   FSETSTAT through it reaches that file (sessions have separate tables) *)
Theorem C31_handle_fresh :
  forall ops fid, let t := fold_left ht_step ops ht_new in
  ht_lookup t (ht_next t) = None /\ ht_lookup (ht_open t fid) (ht_next t) = Some fid.
Proof. intros ops fid. apply handle_fresh, reachable_inv. Qed.
Print Assumptions C31_handle_fresh.

Theorem C31_handle_stable :
  forall ops0 ops h fid, let t := fold_left ht_step ops0 ht_new in
  ht_lookup t h = Some fid -> ~ In (HClose h) ops ->
  ht_lookup (fold_left ht_step ops t) h = Some fid.
Proof. intros ops0 ops h fid. apply handle_stable, reachable_inv. Qed.
Print Assumptions C31_handle_stable.

(* tie to the source: the flag bits and the list of steps (flag tested, call made, order, open mode
   of the resize) regenerated from paramiko's AST on this run are the ones modelled *)
Theorem C31_source_steps : gen_steps = modelled_steps.
Proof. reflexivity. Qed.
Print Assumptions C31_source_steps.

Theorem C31_flag_bits_distinct :
  Z.land FLAG_SIZE FLAG_UIDGID = 0 /\ Z.land FLAG_SIZE FLAG_PERMISSIONS = 0 /\ Z.land FLAG_SIZE FLAG_AMTIME = 0 /\
  Z.land FLAG_UIDGID FLAG_PERMISSIONS = 0 /\ Z.land FLAG_UIDGID FLAG_AMTIME = 0 /\
  Z.land FLAG_PERMISSIONS FLAG_AMTIME = 0 /\
  0 < FLAG_SIZE /\ 0 < FLAG_UIDGID /\ 0 < FLAG_PERMISSIONS /\ 0 < FLAG_AMTIME.
Proof. cbv. repeat split. Qed.
Print Assumptions C31_flag_bits_distinct.

(* what the repair removed: with open(filename, "w+") the resized file is all zeros,
   so the leading bytes are lost (this is what the harness oracle guards against) *)
Theorem C31_wplus_all_zero :
  forall now f n, f_data (set_file_attr_wplus now f (req_truncate n)) = repeat 0 (Z.to_nat n).
Proof.
  intros now f n. cbn. unfold resize. cbn [length]. rewrite firstn_nil, Nat.sub_0_r. reflexivity.
Qed.
Print Assumptions C31_wplus_all_zero.

Theorem C31_wplus_refuted :
  exists now f n, 0 <= n <= Z.of_nat (length (f_data f)) /\
    f_data (set_file_attr_wplus now f (req_truncate n)) <> firstn (Z.to_nat n) (f_data f).
Proof.
  exists 0, (mkfile [7; 8; 9] 420 0 0 0 0), 2. split; [cbn; lia|]. cbv. discriminate.
Qed.
Print Assumptions C31_wplus_refuted.

(* non-vacuity: a concrete file, shrunk and extended *)
Example C31_example :
  f_data (set_file_attr 99 (mkfile [1; 2; 3; 4; 5] 420 0 0 10 20) (req_truncate 3)) = [1; 2; 3] /\
  f_data (set_file_attr 99 (mkfile [1; 2; 3] 420 0 0 10 20) (req_truncate 6)) = [1; 2; 3; 0; 0; 0] /\
  set_file_attr 99 (mkfile [1; 2; 3] 420 0 0 10 20) (mk_attrs (Some 2) None (Some 33261) (Some (5, 6)))
    = mkfile [1; 2] 493 0 0 5 99.
Proof. repeat split. Qed.
