(* C07 -- signatures must use the negotiated or declared signature algorithm.
   [pv] (the cryptographic primitive: key id -> hash id -> data -> signature -> bool) is universally
   quantified: the theorems hold for every primitive, and say under WHICH hash it was consulted. *)
From PV Require Import Bytes C07_gen C07 C07_proofs.
Open Scope Z_scope.

(* Client.  If the host-key algorithm [neg] came out of the client's negotiation (preference list
   [d], disabled set [dis], server's offer [sl]) and _verify_key accepted the server's key and
   signature, then the signature names exactly the negotiated algorithm (cert suffix removed),
   that algorithm is one of the client's preference names and is not disabled, and the primitive
   accepted the signature under the hash belonging to that very name. *)
Theorem C07_client :
  forall (pv : Z -> Z -> list Z -> list Z -> bool) (d dis sl : list name) (neg : name)
         (b : keyblob) (H : list Z) (sg : sigblob) (key : pkey),
    names_plain d = true ->
    negotiate_hostkey d dis sl = Ok neg ->
    verify_key pv neg b H sg = Ok key ->
    s_alg sg = strip_cert neg /\ In (s_alg sg) d /\ ~ In (s_alg sg) dis /\
    exists h, sig_hash key (s_alg sg) = Some h /\ pv (pk_id key) h H (s_sig sg) = true.
Proof. exact client_accept. Qed.
Print Assumptions C07_client.

(* the comparison alone, for any negotiated name however it was obtained *)
Theorem C07_client_sig_alg :
  forall pv (neg : name) (b : keyblob) (H : list Z) (sg : sigblob) (key : pkey),
    verify_key pv neg b H sg = Ok key ->
    s_alg sg = strip_cert neg /\
    exists h, sig_hash key (s_alg sg) = Some h /\ pv (pk_id key) h H (s_sig sg) = true.
Proof. exact verify_key_ok. Qed.
Print Assumptions C07_client_sig_alg.

(* Server.  A public-key request whose signature was accepted: the signature names exactly the
   algorithm declared in the request (cert suffix removed), that name is in the server's
   preference list and not disabled, and the primitive accepted it under that name's hash. *)
Theorem C07_server :
  forall pv (d dis : list name) (decl : name) (b : keyblob) (cbf att : bool)
         (data : list Z) (sg : sigblob) (key : pkey),
    server_pubkey pv d dis decl b cbf att data sg = PkVerified key ->
    generate_key d dis decl b = Some key /\ cbf = false /\ att = true /\
    s_alg sg = strip_cert decl /\ In (s_alg sg) d /\ ~ In (s_alg sg) dis /\
    exists h, sig_hash key (s_alg sg) = Some h /\ pv (pk_id key) h data (s_sig sg) = true.
Proof. exact server_accept. Qed.
Print Assumptions C07_server.

(* a request declaring a disabled or unknown algorithm is answered by a disconnect: no callback,
   no signature check, no PK_OK *)
Theorem C07_server_disabled_disconnects :
  forall pv (d dis : list name) (decl : name) (b : keyblob) (cbf att : bool) (data : list Z) (sg : sigblob),
    (In (strip_cert decl) dis \/ ~ In (strip_cert decl) d) ->
    server_pubkey pv d dis decl b cbf att data sg = PkDisconnect.
Proof.
  intros pv d dis decl b cbf att data sg H. unfold server_pubkey, generate_key, preferred_pubkeys.
  destruct (mem (strip_cert decl) (filter_algorithm d dis)) eqn:Em; [|reflexivity].
  apply mem_In, filter_algorithm_In in Em. tauto.
Qed.
Print Assumptions C07_server_disabled_disconnects.

(* SHA-1 cannot be substituted: with "ssh-rsa" disabled no RSA signature is accepted under SHA-1
   (hash id 1), on either side, for any preference list in which only "ssh-rsa" selects SHA-1 --
   true of the generated defaults, see the Examples *)
Theorem C07_client_no_sha1 :
  forall pv (d dis sl : list name) (neg : name) (b : keyblob) (H : list Z) (sg : sigblob) (key : pkey) (h : Z),
    names_plain d = true -> sha1_only_ssh_rsa d = true -> In n_ssh_rsa dis ->
    negotiate_hostkey d dis sl = Ok neg ->
    verify_key pv neg b H sg = Ok key ->
    pk_class key = KRSA -> sig_hash key (s_alg sg) = Some h -> h <> 1.
Proof.
  intros pv d dis sl neg b H sg key h Hp Hs Hdis Hn Hv Hc Hh ->.
  destruct (client_accept pv d dis sl neg b H sg key Hp Hn Hv) as (_ & Hd & Hnd & _).
  now apply (rsa_sha1_disabled d dis key (s_alg sg)).
Qed.
Print Assumptions C07_client_no_sha1.

Theorem C07_server_no_sha1 :
  forall pv (d dis : list name) (decl : name) (b : keyblob) (cbf att : bool) (data : list Z)
         (sg : sigblob) (key : pkey) (h : Z),
    sha1_only_ssh_rsa d = true -> In n_ssh_rsa dis ->
    server_pubkey pv d dis decl b cbf att data sg = PkVerified key ->
    pk_class key = KRSA -> sig_hash key (s_alg sg) = Some h -> h <> 1.
Proof.
  intros pv d dis decl b cbf att data sg key h Hs Hdis Hv Hc Hh ->.
  destruct (server_accept pv d dis decl b cbf att data sg key Hv) as (_ & _ & _ & _ & Hd & Hnd & _).
  now apply (rsa_sha1_disabled d dis key (s_alg sg)).
Qed.
Print Assumptions C07_server_no_sha1.

(* an accepted ECDSA key lies on the curve the signature (hence the negotiated / declared
   algorithm) names *)
Theorem C07_ecdsa_curve :
  forall (k : pkey) (alg : name) (h : Z),
    pk_class k = KECDSA -> sig_hash k alg = Some h -> pk_ident k = alg.
Proof.
  intros k alg h Hc. unfold sig_hash. rewrite Hc.
  destruct (neq alg (pk_ident k)) eqn:E; [|discriminate]. now apply neq_eq in E.
Qed.
Print Assumptions C07_ecdsa_curve.

(* the negotiated host-key algorithm is the client's most preferred one among the server's *)
Theorem C07_negotiated_is_first_common :
  forall (d dis sl : list name) (x : name),
    negotiate_hostkey d dis sl = Ok x ->
    exists pre post, preferred_keys d dis = pre ++ x :: post /\ forall y, In y pre -> ~ In y sl.
Proof.
  intros d dis sl x H. destruct (negotiate_first d dis sl x H) as (pre & post & E & _ & Hpre). eauto.
Qed.
Print Assumptions C07_negotiated_is_first_common.

(* the code before fixes/C07-signature-algorithm-must-match.diff violated the property *)
(* client: "ssh-rsa" disabled, rsa-sha2-512 negotiated, a signature naming ssh-rsa that is valid
   under SHA-1 only was accepted *)
Theorem C07_client_v0_refuted :
  exists dis sl neg sg key,
    negotiate_hostkey c07_pref_keys dis sl = Ok neg /\ In n_ssh_rsa dis /\
    neg = n_rsa512 /\
    verify_key_v0 pv_sha1 neg rsa_blob [] sg = Ok key /\
    s_alg sg = n_ssh_rsa /\ s_alg sg <> strip_cert neg /\ sig_hash key (s_alg sg) = Some 1.
Proof.
  exists [n_ssh_rsa], [n_rsa512; n_ssh_rsa], n_rsa512, (MkSig n_ssh_rsa []), (MkKey KRSA n_ssh_rsa 7).
  repeat apply conj; try (vm_compute; reflexivity); [now left | vm_compute; discriminate].
Qed.
Print Assumptions C07_client_v0_refuted.

Theorem C07_server_v0_refuted :
  exists dis decl sg key,
    In n_ssh_rsa dis /\ decl = n_rsa512 /\
    server_pubkey_v0 pv_sha1 c07_pref_pubkeys dis decl rsa_blob false true [] sg = PkVerified key /\
    s_alg sg = n_ssh_rsa /\ s_alg sg <> strip_cert decl /\ sig_hash key (s_alg sg) = Some 1.
Proof.
  exists [n_ssh_rsa], n_rsa512, (MkSig n_ssh_rsa []), (MkKey KRSA n_ssh_rsa 7).
  repeat apply conj; try (vm_compute; reflexivity); [now left | vm_compute; discriminate].
Qed.
Print Assumptions C07_server_v0_refuted.

(* server, ECDSA: declared nistp256, key and signature on the disabled curve nistp384 *)
Theorem C07_server_v0_curve_refuted :
  exists dis decl sg key,
    In n_p384 dis /\ decl = n_p256 /\
    server_pubkey_v0 (fun _ _ _ _ => true) c07_pref_pubkeys dis decl p384_blob false true [] sg
      = PkVerified key /\
    pk_ident key = n_p384 /\ s_alg sg <> strip_cert decl.
Proof.
  exists [n_p384], n_p256, (MkSig n_p384 []), (MkKey KECDSA n_p384 9).
  repeat apply conj; try (vm_compute; reflexivity); [now left | vm_compute; discriminate].
Qed.
Print Assumptions C07_server_v0_curve_refuted.

(* the premises about preference lists hold for the tuples generated from the live class *)
Example C07_defaults_ok :
  names_plain c07_pref_keys = true /\ names_plain c07_pref_pubkeys = true /\
  sha1_only_ssh_rsa c07_pref_keys = true /\ sha1_only_ssh_rsa c07_pref_pubkeys = true.
Proof.
  exact (conj default_keys_plain (conj default_pubkeys_plain (conj default_keys_sha1 default_pubkeys_sha1))).
Qed.

(* an honest exchange is accepted: rsa-sha2-512 negotiated with ssh-rsa disabled, a cert host key,
   signature naming rsa-sha2-512 and valid under SHA-512 *)
Example C07_client_accepts_honest :
  let neg := n_rsa512 ++ c07_cert_suffix in
  negotiate_hostkey c07_pref_keys [n_ssh_rsa] [neg; n_ssh_rsa] = Ok neg /\
  verify_key (fun _ h _ _ => h =? 512) neg (MkBlob (n_ssh_rsa ++ c07_cert_suffix) (Ok 7)) [1; 2]
             (MkSig n_rsa512 [3]) = Ok (MkKey KRSA n_ssh_rsa 7).
Proof. split; vm_compute; reflexivity. Qed.

Example C07_server_accepts_honest :
  server_pubkey (fun _ h _ _ => h =? 256) c07_pref_pubkeys [n_ssh_rsa] n_rsa256 rsa_blob false true [1]
                (MkSig n_rsa256 [3]) = PkVerified (MkKey KRSA n_ssh_rsa 7).
Proof. vm_compute. reflexivity. Qed.

(* and the refutation witnesses are rejected by the repaired functions *)
Example C07_witnesses_now_rejected :
  verify_key pv_sha1 n_rsa512 rsa_blob [] (MkSig n_ssh_rsa []) = Raise SSHExc /\
  server_pubkey pv_sha1 c07_pref_pubkeys [n_ssh_rsa] n_rsa512 rsa_blob false true [] (MkSig n_ssh_rsa [])
  = PkSigRejected.
Proof. exact (conj client_witness_rejected server_witness_rejected). Qed.
