(* C05 - algorithm negotiation picks the client's first mutually supported algorithm.
   Vocabulary (coq/Model/C05.v): `negotiate r cfg peer` is _parse_kex_init run by a side in role r
   with local state cfg on the peer's KEXINIT `peer` (eight ARBITRARY name lists: unknown names,
   markers in any position, duplicates, empty lists); `advertised r cfg` is what _send_kex_init
   lists; `client_msg` / `server_msg` are the two KEXINITs of the run (own advertised one and the
   peer's); `offer cat m` is the list a KEXINIT offers in category cat (kex: markers stripped);
   `chosen r cat a` is what side r holds for cat afterwards (c2s = client's local = server's remote). *)
From PV Require Import Bytes ListFacts C05_gen C05 C05_proofs.
From Coq Require Import List ZArith.
Import ListNotations.
Open Scope Z_scope.

(* in each of the 8 categories, in both roles, the result is the first element of the CLIENT's
   list that the server also lists *)
Theorem C05_first_common :
  forall (r : role) (cfg : config) (peer : kexinit) (a : agreement),
    negotiate r cfg peer = Ok a ->
    forall cat : category,
      first_common (offer cat (client_msg r cfg peer)) (offer cat (server_msg r cfg peer))
      = Some (chosen r cat a).
Proof. exact negotiate_first_common. Qed.
Print Assumptions C05_first_common.

(* ... spelled out: the client's list is pre ++ chosen :: post, the server lists `chosen`, and the
   server lists nothing of `pre` *)
Theorem C05_first_common_meaning :
  forall (r : role) (cfg : config) (peer : kexinit) (a : agreement),
    negotiate r cfg peer = Ok a ->
    forall cat : category, exists pre post,
      offer cat (client_msg r cfg peer) = pre ++ chosen r cat a :: post /\
      In (chosen r cat a) (offer cat (server_msg r cfg peer)) /\
      forall y, In y pre -> ~ In y (offer cat (server_msg r cfg peer)).
Proof. intros r cfg peer a H cat. now apply first_common_spec, negotiate_first_common. Qed.
Print Assumptions C05_first_common_meaning.

(* both peers agree: the server's computation on the client's advertised lists is the client's
   computation on the server's advertised lists with local/remote (c2s/s2c) swapped - the same
   algorithms, or the same exception on both sides.  Arbitrary configurations on both sides. *)
Theorem C05_symmetric :
  forall C S : config,
    negotiate Server S (advertised Client C) = swap_result (negotiate Client C (advertised Server S)).
Proof. exact symmetric. Qed.
Print Assumptions C05_symmetric.

(* never an algorithm the local side disabled (host keys: an enabled name of _preferred_keys or
   the certificate variant preferred_keys derives from one - see `allowed`) *)
Theorem C05_not_disabled :
  forall (r : role) (cfg : config) (peer : kexinit) (a : agreement),
    negotiate r cfg peer = Ok a -> forall cat : category, allowed cfg cat (chosen r cat a).
Proof. exact negotiate_allowed. Qed.
Print Assumptions C05_not_disabled.

(* a server only agrees on a host key algorithm it holds a key for *)
Theorem C05_server_has_key :
  forall (cfg : config) (peer : kexinit) (a : agreement),
    negotiate Server cfg peer = Ok a -> In (a_hostkey a) (server_keys cfg).
Proof.
  intros cfg peer a H. apply (agreed_hostkey_available cfg peer), hd_error_In.
  exact (negotiate_ok Server cfg peer a H CHostKey).
Qed.
Print Assumptions C05_server_has_key.

(* IncompatiblePeer exactly when some category has an empty intersection (premise: the kex
   preference tuple names entries of _kex_info, which SecurityOptions enforces; without it the
   only other outcome is the KeyError of `self._kex_info[...]`) *)
Theorem C05_fail_iff :
  forall (r : role) (cfg : config) (peer : kexinit),
    subset_b (p_kex cfg) kex_info_keys = true ->
    (negotiate r cfg peer = Raise IncompatiblePeer <->
     exists cat : category,
       forall x, In x (offer cat (client_msg r cfg peer)) ->
                 ~ In x (offer cat (server_msg r cfg peer))).
Proof.
  intros r cfg peer Hk.
  assert (E0 : forall cat, agreed r cfg peer cat = [] <->
                 forall x, In x (offer cat (client_msg r cfg peer)) -> ~ In x (offer cat (server_msg r cfg peer))).
  { intros cat. rewrite <- first_common_none. unfold first_common. rewrite <- agreed_spec.
    now destruct (agreed r cfg peer cat). }
  split.
  - intros H.
    destruct (negotiate_cases r cfg peer) as [[cat [E _]]|[[a [E _]]|[k [_ [_ E]]]]]; try congruence.
    exists cat. now apply E0.
  - intros [cat Hc]. apply E0 in Hc.
    destruct (outcomes r cfg peer Hk) as [[a E]|E]; [|exact E].
    pose proof (negotiate_ok r cfg peer a E cat) as Hh. now rewrite Hc in Hh.
Qed.
Print Assumptions C05_fail_iff.

(* ... and there is no third outcome *)
Theorem C05_outcomes :
  forall (r : role) (cfg : config) (peer : kexinit),
    subset_b (p_kex cfg) kex_info_keys = true ->
    (exists a, negotiate r cfg peer = Ok a) \/ negotiate r cfg peer = Raise IncompatiblePeer.
Proof. exact outcomes. Qed.
Print Assumptions C05_outcomes.

(* no ext-info- / kex-strict- name is ever the agreed kex algorithm: arbitrary local state (even
   preference lists that themselves contain marker names) and arbitrary peer lists *)
Theorem C05_no_marker_kex :
  forall (r : role) (cfg : config) (peer : kexinit) (a : agreement),
    negotiate r cfg peer = Ok a -> is_marker (a_kex a) = false.
Proof.
  intros r cfg peer a H. pose proof (negotiate_ok r cfg peer a H CKex) as Hf.
  apply hd_error_In in Hf. rewrite agreed_spec in Hf. apply filter_In in Hf as [Hf _].
  cbn [offer chosen] in Hf. now apply strip_In in Hf.
Qed.
Print Assumptions C05_no_marker_kex.

(* ... nor in any other category, for every local state whose preference tuples are drawn from
   the (generated) algorithm tables, whatever the peer lists *)
Theorem C05_no_marker :
  forall (r : role) (cfg : config) (peer : kexinit) (a : agreement),
    cfg_in_tables cfg = true -> negotiate r cfg peer = Ok a ->
    forall cat : category, is_marker (chosen r cat a) = false.
Proof.
  intros r cfg peer a Ht H cat. pose proof (negotiate_allowed r cfg peer a H cat) as Ha.
  unfold cfg_in_tables in Ht. rewrite !andb_true_iff in Ht. destruct Ht as [[[[H1 H2] H3] H4] H5].
  destruct tables_no_marker as (T1 & T2 & T3 & T4 & T5).
  destruct cat; cbn [allowed] in Ha; unfold enabled in Ha.
  2: { rewrite forallb_forall in T2.
       destruct Ha as [[Ha _]|[b [[Hb _] ->]]];
         [specialize (T2 _ (subset_b_In _ _ _ H2 Ha)) | specialize (T2 _ (subset_b_In _ _ _ H2 Hb))];
         rewrite andb_true_iff, !negb_true_iff in T2; apply T2. }
  1: exact (table_member_no_marker _ _ _ T1 H1 (proj1 Ha)).
  1, 2: exact (table_member_no_marker _ _ _ T3 H3 (proj1 Ha)).
  1, 2: exact (table_member_no_marker _ _ _ T4 H4 (proj1 Ha)).
  1, 2: exact (table_member_no_marker _ _ _ T5 H5 (proj1 Ha)).
Qed.
Print Assumptions C05_no_marker.

(* the class-level default tuples (regenerated from /repo on every run) satisfy that premise *)
Theorem C05_defaults_in_tables :
  forall sk m s, cfg_in_tables (default_cfg sk m s) = true.
Proof. intros sk m s. vm_compute. reflexivity. Qed.
Print Assumptions C05_defaults_in_tables.

(* the source removes the markers with an index loop (collect indices in reverse, list.pop each):
   for every list it never raises IndexError and yields exactly the filter used by `negotiate` *)
Theorem C05_strip_loop :
  forall l : list name, strip_markers_loop l = Some (strip_markers l).
Proof. exact strip_loop_eq. Qed.
Print Assumptions C05_strip_loop.

(* gss_kex=True (Transport.__init__ prepends _preferred_gsskex): the tuple still names table
   entries only, so every premise above is met by that configuration too *)
Theorem C05_gss_defaults_in_tables :
  forall sk m s,
    cfg_in_tables (mkConfig (init_kex true) pref_keys pref_ciphers pref_macs pref_compression
                            [] [] [] [] [] sk m s) = true.
Proof. intros sk m s. vm_compute. reflexivity. Qed.
Print Assumptions C05_gss_defaults_in_tables.

(* the behaviour before fixes/C05-gex-advertised-without-moduli.diff: a server without a modulus
   pack listed the group-exchange methods it then refused, so a client preferring them ends up
   with a different kex algorithm than the server *)
Theorem C05_unrepaired_advert_refuted :
  exists a b,
    cfg_in_tables wit_client = true /\ cfg_in_tables wit_server = true /\
    negotiate Server wit_server (advertised Client wit_client) = Ok a /\
    negotiate Client wit_client (advertised_unrepaired Server wit_server) = Ok b /\
    is_gex (a_kex b) = true /\ is_gex (a_kex a) = false.
Proof. eexists. eexists. repeat apply conj; vm_compute; reflexivity. Qed.
Print Assumptions C05_unrepaired_advert_refuted.

(* non-vacuity: default client against default server (all host keys) succeeds and picks the
   client's first kex / cipher; a peer without ciphers is refused; markers are skipped wherever
   the peer puts them *)
Example C05_example_ok :
  exists a, negotiate Client (default_cfg [] false true)
                      (advertised Server (default_cfg pref_keys false true)) = Ok a /\
            Some (a_kex a) = hd_error pref_kex /\ Some (a_local_cipher a) = hd_error pref_ciphers /\
            Some (a_hostkey a) = hd_error pref_keys.
Proof. eexists. split; [vm_compute; reflexivity|]. repeat split; vm_compute; reflexivity. Qed.

Example C05_example_fail :
  negotiate Server (default_cfg pref_keys false true)
            (mkKI pref_kex pref_keys [] pref_ciphers pref_macs pref_macs pref_compression pref_compression)
  = Raise IncompatiblePeer.
Proof. vm_compute. reflexivity. Qed.

Example C05_example_marker :
  exists a, negotiate Server (default_cfg pref_keys true true)
              (mkKI (lit_kex_strict_c :: lit_ext_info_c :: rev pref_kex ++ [lit_ext_info_c])
                    pref_keys pref_ciphers pref_ciphers pref_macs pref_macs
                    pref_compression pref_compression) = Ok a /\
            Some (a_kex a) = hd_error (rev pref_kex).
Proof. eexists. split; vm_compute; reflexivity. Qed.
