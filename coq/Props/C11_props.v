(* C11 - key re-exchange is transparent to whatever traffic is in flight.
   The property statements, each proved from the lemmas of Proofs/C11_proofs.v: the general ones from the
   invariant of the LTS (inv_run), the witnesses and the facts about the generated table by evaluation.
   The LTS is Model/C11.v; the reply discipline of every handler (disc_of, reply_types, keepalive_disc)
   and the shape facts come from Gen/C11_gen.v, regenerated from the source on every run.

   DESIRED (DESIGN.md section 7) and what the code as written gives:
     C11_only_kex_between   : forall keep evs, offenders false (out (run (init_st keep) evs)) = []
                              FALSE -> C11_only_kex_between_refuted (+ the two handlers, by name);
                              what does hold: C11_offenders_are_ungated_replies, C11_user_sends_gated.
     C11_no_self_deadlock   : forall keep evs, ttw (run (init_st keep) evs) = None
                              FALSE -> C11_no_self_deadlock_refuted (+ the four handlers and the keepalive tick);
                              what does hold: C11_tt_blocks_only_gated, C11_blocked_transport_never_released.
     C11_queued_delivered   : holds for every reachable state whose transport thread is not blocked. *)
From Coq Require Import ZArith List Bool.
From PV Require Import Bytes ListFacts C11_gen C11 C11_proofs.
Import ListNotations.
Open Scope Z_scope.

(* every message >= 50 emitted between own KEXINIT and own NEWKEYS, under every interleaving of user
   threads, peer messages, thresholds, keepalive ticks and timeouts, is a reply built by a handler that
   the generated table marks Ungated *)
Theorem C11_offenders_are_ungated_replies :
  forall keep evs it, In it (offenders false (out (run (init_st keep) evs))) ->
    exists p, snd it = OReply p /\ disc_of p = Ungated /\ In (fst it) (reply_types p).
Proof.
  intros keep evs it H. destruct (i_off _ _ _ (reach_inv keep evs) it H) as [p [_ G]]. exists p. exact G.
Qed.
Print Assumptions C11_offenders_are_ungated_replies.

(* in particular user-thread sends (and keepalives, and kex messages) never are: the gate holds them *)
Theorem C11_user_sends_gated :
  forall keep evs it, In it (offenders false (out (run (init_st keep) evs))) ->
    snd it <> OUser /\ snd it <> OKeepalive /\ snd it <> OKex.
Proof.
  intros keep evs it H. destruct (C11_offenders_are_ungated_replies keep evs it H) as [p [E _]].
  rewrite E. repeat split; discriminate.
Qed.
Print Assumptions C11_user_sends_gated.

(* known finding 1: the desired theorem is false for the code as written *)
Theorem C11_only_kex_between_refuted :
  ~ (forall keep evs, offenders false (out (run (init_st keep) evs)) = []).
Proof.
  intros H. specialize (H false [UserRekey; Recv 80 true]). vm_compute in H. discriminate H.
Qed.
Print Assumptions C11_only_kex_between_refuted.

Theorem C11_global_request_reply_ungated :
  exists evs it, In it (offenders false (out (run (init_st false) evs))) /\
                 snd it = OReply MSG_GLOBAL_REQUEST /\ disc_of MSG_GLOBAL_REQUEST = Ungated.
Proof.
  exists [UserRekey; Recv 80 true], (81, OReply 80). split; [vm_compute; auto|split; reflexivity].
Qed.
Print Assumptions C11_global_request_reply_ungated.

Theorem C11_channel_open_reply_ungated :
  exists evs it, In it (offenders false (out (run (init_st false) evs))) /\
                 snd it = OReply MSG_CHANNEL_OPEN /\ disc_of MSG_CHANNEL_OPEN = Ungated.
Proof.
  exists [Threshold; TtIter; Recv 90 true], (91, OReply 90). split; [vm_compute; auto|split; reflexivity].
Qed.
Print Assumptions C11_channel_open_reply_ungated.

(* the transport thread waits on clear_to_send only inside a handler the table marks Gated (or in the
   keepalive tick), and only while the flag is clear *)
Theorem C11_tt_blocks_only_gated :
  forall keep evs its, ttw (run (init_st keep) evs) = Some its ->
    cts (run (init_st keep) evs) = false /\
    ((exists p, disc_of p = Gated /\ its = replies p) \/ (keepalive_disc = Gated /\ its = keepalive_msg)).
Proof.
  intros keep evs its H. destruct (i_ttw _ _ _ (reach_inv keep evs) its H) as [C B]. split; [exact C|].
  destruct B as [[p [_ B]]|[_ B]]; [left; exists p; exact B|right; exact B].
Qed.
Print Assumptions C11_tt_blocks_only_gated.

(* and then it is a self-deadlock: whatever happens next, nothing is emitted, the flag stays clear and the
   thread stays blocked (only the transport thread could set the flag); only the timeout ends it *)
Theorem C11_blocked_transport_never_released :
  forall keep evs0 its evs, let s := run (init_st keep) evs0 in
    ttw s = Some its ->
    out (run s evs) = out s /\ cts (run s evs) = false /\ ttw (run s evs) = Some its.
Proof. intros keep evs0 its evs s. apply (blocked_stays _ _ s its evs (reach_inv keep evs0)). Qed.
Print Assumptions C11_blocked_transport_never_released.

(* known finding 2: the desired theorem is false for the code as written *)
Theorem C11_no_self_deadlock_refuted :
  ~ (forall keep evs, ttw (run (init_st keep) evs) = None).
Proof.
  intros H. specialize (H false [UserRekey; Recv 98 true]). vm_compute in H. discriminate H.
Qed.
Print Assumptions C11_no_self_deadlock_refuted.

(* Channel._feed_extended (95), _handle_close (97), _handle_request (98), _request_failed (100) *)
Theorem C11_gated_handlers_block_transport_thread :
  forall p, In p gated_witnesses ->
    disc_of p = Gated /\ ttw (run (init_st false) [UserRekey; Recv p true]) = Some (replies p).
Proof.
  intros p H. simpl in H.
  repeat (destruct H as [H|H]; [subst p; split; vm_compute; reflexivity|]). contradiction.
Qed.
Print Assumptions C11_gated_handlers_block_transport_thread.

Theorem C11_keepalive_blocks_transport_thread :
  keepalive_disc = Gated /\ ttw (run (init_st true) [UserRekey; KeepTick]) = Some keepalive_msg.
Proof. split; vm_compute; reflexivity. Qed.
Print Assumptions C11_keepalive_blocks_transport_thread.

(* peer traffic whose handler does not reply (or does not take its reply path) is transparent: nothing
   illegal is emitted, the transport thread never waits, the session stays up - for every interleaving *)
Theorem C11_quiet_transparent :
  forall keep evs, forallb quiet evs = true ->
    let s := run (init_st keep) evs in
    offenders false (out s) = [] /\ ttw s = None /\ dead s = false.
Proof.
  intros keep evs Q s.
  assert (I : Inv (fun _ => False) False s) by (apply inv_run; [apply inv_init|apply quiet_ok; exact Q]).
  assert (T : ttw s = None).
  { destruct (ttw s) as [its|] eqn:T; [|reflexivity].
    destruct (i_ttw _ _ _ I its T) as [_ [[p [F _]]|[F _]]]; contradiction. }
  repeat split; auto.
  - apply incl_l_nil. intros it H. destruct (i_off _ _ _ I it H) as [p [F _]]. contradiction.
  - destruct (dead s) eqn:D; [|reflexivity]. exfalso. apply (i_dead _ _ _ I); auto.
Qed.
Print Assumptions C11_quiet_transparent.

(* which handlers those are in the working tree (finite sweep over the generated table) *)
Theorem C11_quiet_handlers : forall p, In p quiet_types -> disc_of p = NoReply.
Proof.
  intros p H. simpl in H. repeat (destruct H as [H|H]; [subst p; reflexivity|]). contradiction.
Qed.
Print Assumptions C11_quiet_handlers.

(* ... and the recorded findings cover every handler that replies *)
Theorem C11_replying_handlers :
  forall p d l, In (p, (d, l)) handler_table -> d <> NoReply ->
    (d = Ungated /\ In p [80; 90]) \/ (d = Gated /\ In p gated_witnesses).
Proof.
  assert (K : forallb (fun e => match fst (snd e) with
                                | NoReply => true
                                | Ungated => existsb (Z.eqb (fst e)) [80; 90]
                                | Gated => existsb (Z.eqb (fst e)) gated_witnesses
                                end) handler_table = true) by reflexivity.
  intros p d l H N. rewrite forallb_forall in K. specialize (K _ H). cbn [fst snd] in K.
  destruct d; [contradiction| |].
  - left. split; [reflexivity|]. apply (existsb_eqb_In Z.eqb_eq), K.
  - right. split; [reflexivity|]. apply (existsb_eqb_In Z.eqb_eq), K.
Qed.
Print Assumptions C11_replying_handlers.

(* from every reachable state whose transport thread is not blocked: once the peer's half of the exchange
   arrives the flag is set again, every user send that was held at the gate is emitted, in order, after own
   NEWKEYS, none is lost, and no new offender appears *)
Theorem C11_queued_delivered :
  forall keep evs, let s := run (init_st keep) evs in
    dead s = false -> ttw s = None ->
    let s' := run s (complete (ph s) ++ repeat UserWake (length (uq s))) in
    ph s' = Idle /\ cts s' = true /\ uq s' = [] /\
    out s' = out s ++ kexpart (ph s) ++ map (fun t => (t, OUser)) (uq s) /\
    offenders false (out s') = offenders false (out s).
Proof. intros keep evs s _. apply (delivered _ _ s (reach_inv keep evs)). Qed.
Print Assumptions C11_queued_delivered.

(* locks.  No public or internal Channel / Transport function reaches a send primitive while it holds
   self.lock (every critical section of both classes, from the AST) ... *)
Theorem C11_no_send_under_lock : locked_send_count = 0.
Proof. reflexivity. Qed.
Print Assumptions C11_no_send_under_lock.

(* ... so, for every interleaving, no user thread parks at the gate with the lock and the transport thread
   never waits on a lock inside a handler *)
Theorem C11_tt_never_waits_on_lock :
  forall keep evs, ttl (run (init_st keep) evs) = false /\ lk (run (init_st keep) evs) = false.
Proof. intros. pose proof (reach_inv keep evs) as I. split; [apply (i_ttl _ _ _ I)|apply (i_lk _ _ _ I)]. Qed.
Print Assumptions C11_tt_never_waits_on_lock.

(* what that fact protects against (the LTS with a locked gated send, step_gen true): a user thread does
   shutdown / close / send under the lock during own re-key, a crossing WINDOW_ADJUST (handler needs the lock,
   from the generated table) blocks the transport thread behind it, and from then on nothing is ever emitted
   and the flag is never set: the exchange stalls with only the KEXINIT sent *)
Theorem C11_locked_send_would_deadlock :
  let s := run_gen true true (init_st false) [UserRekey; UserSendLocked 96; Recv 93 false] in
  needs_lock 93 = true /\ ttl s = true /\ map fst (out s) = [20] /\
  forall evs, out (run_gen true true s evs) = out s /\ cts (run_gen true true s evs) = false.
Proof.
  intros s. split; [reflexivity|]. split; [reflexivity|]. split; [reflexivity|].
  assert (P : parked s) by (repeat split; reflexivity).
  intros evs. pose proof (parked_run true true evs s P) as E. injection E as EO EC _ _ _ _. rewrite EO, EC.
  split; reflexivity.
Qed.
Print Assumptions C11_locked_send_would_deadlock.

(* the keepalive guard (Packetizer._check_keepalive, shape pinned by gen/c11.py): while need_rekey is set the
   tick does nothing, whatever the state - this is what keeps C11_keepalive_blocks_transport_thread from applying
   to exchanges started by the thresholds *)
Theorem C11_keepalive_guarded_while_need_rekey :
  keepalive_need_guard = true /\ forall s, need s = true -> step s KeepTick = s.
Proof.
  split; [reflexivity|]. intros s N. unfold step, step_gen. destruct (dead s); [reflexivity|].
  destruct (tt_free s); [|reflexivity]. rewrite N.
  change keepalive_need_guard with true. rewrite andb_false_r. reflexivity.
Qed.
Print Assumptions C11_keepalive_guarded_while_need_rekey.

Theorem C11_threshold_rekey_ignores_keepalive :
  let with_ticks := [Threshold; TtIter; KeepTick; UserSend 94; KeepTick; Recv 20 false; KeepTick;
                     Recv 31 false; KeepTick; Recv 21 false; UserWake] in
  let without := [Threshold; TtIter; UserSend 94; Recv 20 false; Recv 31 false; Recv 21 false; UserWake] in
  run (init_st true) with_ticks = run (init_st true) without /\
  map fst (out (run (init_st true) with_ticks)) = [20; 30; 21; 94].
Proof. vm_compute. split; reflexivity. Qed.
Print Assumptions C11_threshold_rekey_ignores_keepalive.

(* the NEWKEYS window.  `run` above is the LTS in which _parse_newkeys writes in_kex and sets clear_to_send in
   ONE clear_to_send_lock section and signals completion_event only afterwards (v1).  The working tree is that
   LTS exactly when the translator finds that shape (nk_atomic, generated): *)
Theorem C11_tree_is_v1 : nk_atomic = true -> forall s e, step_tree s e = step s e.
Proof. intros H s e. unfold step_tree, step. rewrite H. reflexivity. Qed.
Print Assumptions C11_tree_is_v1.

(* v0 (completion_event signalled first): a renegotiate_keys issued as soon as the previous call returned has
   its clear() undone by the transport thread's late clear_to_send.set(); a USER message follows the new
   KEXINIT.  C11_user_sends_gated is false for v0. *)
Theorem C11_newkeys_window_v0_refuted :
  let evs := [UserRekey; Recv 20 false; Recv 31 false; Recv 21 false; UserRekey; TtLate; UserSend 94] in
  In (94, OUser) (offenders false (out (run_gen false false (init_st false) evs))) /\
  map fst (out (run_gen false false (init_st false) evs)) = [20; 30; 21; 20; 94].
Proof. vm_compute. split; [left; reflexivity|reflexivity]. Qed.
Print Assumptions C11_newkeys_window_v0_refuted.

(* the same schedule in v1 (covered in general by C11_user_sends_gated / C11_queued_delivered) *)
Theorem C11_newkeys_window_v1_gated :
  let evs := [UserRekey; Recv 20 false; Recv 31 false; Recv 21 false; UserRekey; TtLate; UserSend 94;
              Recv 20 false; Recv 31 false; Recv 21 false; UserWake] in
  map fst (out (run (init_st false) evs)) = [20; 30; 21; 20; 30; 21; 94].
Proof. vm_compute. reflexivity. Qed.
Print Assumptions C11_newkeys_window_v1_gated.

(* the shape of the gate, of the flag's writers and of the callers of the ungated primitive, as found in
   the source by gen/c11.py (these justify the step function of the model) *)
Theorem C11_shape_facts :
  gate_waits = true /\ gate_releases_on_every_exit = true /\ kexinit_saved_before_send = true /\ kexinit_clears_first = true /\ negotiate_clears_first = true /\
  newkeys_sets = true /\ flag_set_only_in_newkeys = true /\ send_message_is_packetizer = true /\
  public_ungated_count = 0 /\ kex_gate_uses = 0 /\ MSG_KEXINIT = 20 /\ MSG_NEWKEYS = 21 /\
  HIGHEST_USERAUTH_MESSAGE_ID < 80 /\ MSG_GLOBAL_REQUEST = 80 /\ MSG_CHANNEL_OPEN = 90 /\
  MSG_CHANNEL_DATA = 94 /\ MSG_CHANNEL_CLOSE = 97 /\ MSG_CHANNEL_REQUEST = 98.
Proof. repeat split; reflexivity. Qed.
Print Assumptions C11_shape_facts.

(* a quiet history with real content: data in flight across an explicit re-key, a user send held and
   delivered *)
Example quiet_history_nontrivial :
  let evs := [UserRekey; UserSend 94; Recv 94 true; Recv 96 true; Recv 98 false; Recv 20 false;
              Recv 31 false; Recv 21 false; UserWake] in
  forallb quiet evs = true /\
  map fst (out (run (init_st true) evs)) = [20; 30; 21; 94].
Proof. vm_compute. split; reflexivity. Qed.

(* the hypotheses of C11_queued_delivered are met by a mid-exchange state with two held user sends *)
Example queued_state_nontrivial :
  let s := run (init_st false) [Threshold; TtIter; UserSend 94; Recv 93 true; UserSend 98] in
  dead s = false /\ ttw s = None /\ ph s = SentKexinit /\ uq s = [94; 98] /\ cts s = false.
Proof. vm_compute. repeat split; reflexivity. Qed.

(* a blocked state exists (hypothesis of C11_blocked_transport_never_released) *)
Example blocked_state_nontrivial :
  ttw (run (init_st false) [UserRekey; Recv 97 true]) = Some [(96, OReply 97); (97, OReply 97)].
Proof. vm_compute. reflexivity. Qed.
