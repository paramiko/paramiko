(* C29 - SFTP bulk transfers are exact or fail loudly.
   putfo = Model/C29.v (upload path over the C30 request / reply bookkeeping). *)
From PV Require Import Bytes C30_gen C30 C30_proofs C29 C29_proofs.
Open Scope Z_scope.

(* DESIRED: putfo returns normally only if the remote file equals the source bytes.
   REFUTED on the code as it is (known finding pipelined-write-status-discarded): SFTPFile._write
   registers pipelined CMD_WRITE requests with fileobj = type(None); _finish_responses in _close is a
   no-op for them and the error STATUS is read and dropped by the next wait (CMD_CLOSE at the latest).
   With the library's own MAX_REQUEST_SIZE: one byte, its write is rejected, confirm=False. *)
Theorem C29_exact_or_raise_refuted :
  exists chunks env dest,
    putfo g_MAX_REQUEST_SIZE chunks false env handle_rp ok_rp None = (ORet, dest) /\
    dest <> concat chunks.
Proof.
  exists [[1]], [(false, g_SFTP_PERMISSION_DENIED)], []. split; [vm_compute; reflexivity | discriminate].
Qed.
Print Assumptions C29_exact_or_raise_refuted.

(* ... and confirm=True does not help when a later accepted write restores the size *)
Theorem C29_exact_or_raise_confirm_refuted :
  exists chunks env dest,
    putfo g_MAX_REQUEST_SIZE chunks true env handle_rp ok_rp None = (ORet, dest) /\
    dest <> concat chunks /\ zlen dest = zlen (concat chunks).
Proof.
  exists [[1]; [2]], [(false, g_SFTP_FAILURE); (false, g_SFTP_OK)], [0; 2].
  split; [vm_compute; reflexivity | split; [discriminate | reflexivity]].
Qed.
Print Assumptions C29_exact_or_raise_confirm_refuted.

(* DESIRED: an error STATUS for a pipelined write raises no later than close().  REFUTED (same finding):
   for every status code, write() and close() both return normally - also when the rejected write is
   the buffered tail that close() itself flushes. *)
Theorem C29_rejected_write_surfaces_refuted :
  forall code,
    run true [OSetPipe true; OWrite false (g_CMD_STATUS, code); OClose [] ok_status] f_init c_init = [ORet; ORet; ORet] /\
    run true [OSetPipe true; OClose [(false, (g_CMD_STATUS, code))] ok_status] f_init c_init = [ORet; ORet].
Proof. intros code. split; reflexivity. Qed.
Print Assumptions C29_rejected_write_surfaces_refuted.

(* POSITIVE.  Exact or raise whenever the server accepted every write it was sent: for all chunkings of
   the source, request sizes, recv_ready() answers, and open / close / stat replies. *)
Theorem C29_exact_or_raise_accepting_server :
  forall mrs chunks confirm env open_rp close_rp stat_rp dest,
    accepted env ->
    putfo mrs chunks confirm env open_rp close_rp stat_rp = (ORet, dest) ->
    dest = concat chunks.
Proof.
  intros mrs chunks confirm env orp crp srp dest Ha [H _]%putfo_ret_inv. exact (H Ha).
Qed.
Print Assumptions C29_exact_or_raise_accepting_server.

(* With confirm=True (honest stat) a normal return means the remote size equals the bytes sent,
   whatever the server did to individual writes: a rejection that leaves the file short raises. *)
Theorem C29_confirm_checks_size :
  forall mrs chunks env open_rp close_rp r dest,
    putfo mrs chunks true env open_rp close_rp None = (r, dest) ->
    zlen dest <> zlen (concat chunks) -> r <> ORet.
Proof.
  intros mrs chunks env orp crp r dest H Hne ->. apply putfo_ret_inv in H as [_ H].
  exact (Hne (H eq_refl eq_refl)).
Qed.
Print Assumptions C29_confirm_checks_size.

(* Non-pipelined files (the default): in every state reachable without set_pipelined(True), a write
   the server answers with an error status raises from that very write() call. *)
Theorem C29_nonpipelined_write_surfaces :
  nonpipe_state f_init c_init /\
  (forall f c ready rp r f' c', nonpipe_state f c -> write_op true ready rp f c = (r, f', c') -> nonpipe_state f' c') /\
  (forall f c ready code, nonpipe_state f c -> code <> g_SFTP_OK ->
     exists e f' c', write_op true ready (g_CMD_STATUS, code) f c = (ORaise e, f', c')).
Proof.
  split; [|split; [exact nonpipe_step_write | exact nonpipe_rejected_write_raises]].
  split; [reflexivity|split; [reflexivity|split; [reflexivity|exact wf_init]]].
Qed.
Print Assumptions C29_nonpipelined_write_surfaces.

(* non-vacuity: an accepting server, four write requests (4 + 4 + 1 bytes, then 1 byte), confirm=True: returns with the exact bytes *)
Example C29_example :
  accepted [] /\
  putfo 4 [[1; 2; 3; 4; 5; 6; 7; 8; 9]; [10]] true [] handle_rp ok_rp None = (ORet, [1; 2; 3; 4; 5; 6; 7; 8; 9; 10]).
Proof. split; [constructor | vm_compute; reflexivity]. Qed.
