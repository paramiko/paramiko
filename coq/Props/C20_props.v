(* C20 -- channel flow control never deadlocks while the receiver keeps reading; every byte the peer
   sends, including discarded extended data, is credited back.  Statements over Model/C19.v + Model/C20.v,
   derived from the lemmas of Proofs/C20_proofs.v.

   `init2 W P dmp c`: both ends run paramiko, W = the receiver's in_window_size (what it advertised and the
   sender stored as out_window_size), P = the max packet size the receiver advertised (any value; the
   sender sanitizes it to >= 4096).  Every transport-sanitized window satisfies 32768 <= W (C19_sanitize);
   the theorems need only 1 <= W.  `ops` = any interleaving of critical sections of any number of
   sending / receiving threads, extended-data type codes arbitrary (`OSend (Some code) n`). *)
From PV Require Import Bytes C19_gen C19 C19_proofs C20 C20_proofs.
Open Scope Z_scope.

(* conservation of credit: the sender's window plus everything outstanding (in a sender's hand, in
   flight, buffered unread, counted in in_window_sofar, adjusts in hand / in flight) is always exactly W;
   no discarded byte is lost to the accounting *)
Theorem C20_every_byte_credited :
  forall W P dmp c ops,
    0 <= W -> Forall op_wf ops ->
    let s := run (init2 W P dmp c) ops in
    ow s + outstanding s = W /\ g_lost s = 0.
Proof. exact conservation. Qed.
Print Assumptions C20_every_byte_credited.

(* no deadlock: when nothing is in flight toward the receiver and the application has read everything,
   the sender's window is open or an adjust is on its way -- in fact at least W - W/10 bytes of
   credit are with the sender or in flight to it *)
Theorem C20_progress :
  forall W P dmp c ops,
    1 <= W -> Forall op_wf ops ->
    let s := run (init2 W P dmp c) ops in
    quiescent s ->
    W - W / 10 <= ow s + sum (awire s) /\ (0 < ow s \/ awire s <> []).
Proof. exact progress. Qed.
Print Assumptions C20_progress.

(* a send call on an open window (by a sender that has not sent EOF) accepts min(n, window, max_packet - 64) >= 1 bytes: pending strictly
   decreases *)
Theorem C20_send_decreases :
  forall W0 s k n,
    Inv W0 s -> eof s = false -> 0 < ow s -> 0 < n ->
    let '(s', r) := step s (OSend k n) in
    r = Z.min n (Z.min (ow s) (omp s - 64)) /\ 0 < r <= n /\ ow s' = ow s - r /\
    obox s' = obox s ++ [mk_msg k r] /\ g_res s' = g_res s + r.
Proof. exact send_decreases. Qed.
Print Assumptions C20_send_decreases.

(* termination: from any reachable state, once the environment has settled (transport delivers, the
   application reads both streams, adjusts are delivered), sendall / sendall_stderr of n bytes
   finishes within n send calls when the environment settles between calls: nothing is left pending,
   exactly n more bytes were put on the wire and exactly n more were consumed (or discarded and credited).
   `eof s0 = false`: the SENDER itself has not called shutdown_write; the receiver may have half-closed its
   own sending direction at any point (that is an op of the opposite direction and touches nothing here;
   the history `ops` may also contain set_combine_stderr calls, OCombine) *)
Theorem C20_transfer_completes :
  forall W P dmp c ops k n,
    1 <= W -> Forall op_wf ops -> 0 <= n ->
    let s0 := settle (run (init2 W P dmp c) ops) in
    eof s0 = false ->
    let '(s', p) := transfer (Z.to_nat n) k n s0 in
    p = 0 /\ settled s' /\ emitted s' = emitted s0 + n /\ g_cons s' + g_disc s' = g_cons s0 + g_disc s0 + n.
Proof.
  intros W P dmp c ops k n HW Hwf Hn s0 He0. assert (H0 : 0 <= W) by lia.
  destruct (reach_inv W P W dmp c ops H0 H0 Hwf) as (HI & _ & Ht).
  destruct (settle_spec W _ HI) as ((I0 & T0 & _) & S0).
  destruct (threshold_spec W H0) as [_ Hlt]. rewrite <- Ht, <- T0 in Hlt. specialize (Hlt HW).
  fold (init2 W P dmp c) in I0, S0, Hlt. fold s0 in I0, S0, Hlt.
  pose proof (transfer_completes_inv W k (Z.to_nat n) n s0 I0 Hlt S0 He0 Hn ltac:(lia)) as Hc.
  destruct (transfer (Z.to_nat n) k n s0) as [s' p]. destruct Hc as (Hp & I' & S' & G').
  split; [exact Hp|]. split; [exact S'|].
  (* what was pending has been emitted, delivered and consumed or discarded *)
  destruct (settled_emitted W s' I' S') as [E1 E2]. destruct (settled_emitted W s0 I0 S0) as [E3 E4].
  split; lia.
Qed.
Print Assumptions C20_transfer_completes.

(* the repair is what the theorems above rest on: the source's discard branch credits the bytes *)
Theorem C20_discard_branch_credits : ext_discard_credits = true.
Proof. exact discard_credits. Qed.
Print Assumptions C20_discard_branch_credits.

(* non-vacuity: 9 discarded messages of type 3 (36000 bytes > the 32768 window); every byte comes back *)
Example C20_example :
  let ops := concat (repeat [OSend (Some 3) 4000; OEmit 0; ODeliver; OEmitAdj 0; ODeliverAdj] 9) in
  Forall op_wf ops /\
  let s := run (init2 32768 32768 32768 false) ops in
  quiescent s /\ (emitted s, g_disc s, g_grant s, ow s, sofar s) = (36000, 36000, 36000, 32768, 0).
Proof.
  split; [cbv [concat repeat app]; repeat (apply Forall_cons; [cbn; lia|]); apply Forall_nil|].
  vm_compute. repeat split; reflexivity.
Qed.
