(* C23 — live channel ids are unique within a transport and fit in 24 bits.
   `bits` is the number of id bits; paramiko's instance (from the source, Gen/C23_gen.v) is
   BITS = 24, chan_mask = 0xFFFFFF = Z.ones 24 (C23_mask). *)
From PV Require Import Bytes C23_gen C23 C23_proofs.
Open Scope Z_scope.

Theorem C23_mask : 0 <= BITS /\ chan_mask = Z.ones BITS /\ 2 ^ BITS = 16777216.
Proof. vm_compute. repeat split; congruence. Qed.
Print Assumptions C23_mask.

(* _next_channel: the id and the new counter are < 2^bits, and the id is not in the live map *)
Theorem C23_range :
  forall bits live c x c' k, 0 <= bits -> in_range bits c ->
    next_channel bits live c = Some (x, c', k) ->
    0 <= x < 2 ^ bits /\ 0 <= c' < 2 ^ bits /\ ~ In x live.
Proof.
  intros bits live c x c' k Hb Hc (H1 & H2 & H3 & _)%next_channel_spec; auto.
Qed.
Print Assumptions C23_range.

(* the search loop of _next_channel terminates while fewer than 2^bits channels are live:
   |live| iterations suffice, for any live map (duplicates or out-of-range keys included) *)
Theorem C23_next_channel_terminates :
  forall bits live c, 0 <= bits -> in_range bits c ->
    Z.of_nat (length live) < 2 ^ bits ->
    next_channel bits live c <> None.
Proof.
  intros bits live c Hb Hc Hlen. unfold next_channel, next_fuel.
  pose proof (next_loop_total bits live Hb Hlen (length live) 0%nat c 0 eq_refl (proj1 Hc)) as H.
  cbn [Z.of_nat] in H. rewrite Z.add_0_r, Z.mod_small in H by exact Hc.
  destruct (next_loop bits (length live) live c 0) as [[y j]|]; [discriminate|].
  exfalso. apply H; [intros i Hi; lia | reflexivity].
Qed.
Print Assumptions C23_next_channel_terminates.

(* ... and otherwise it does not: with every id live the loop never exits (the real code would
   spin holding the transport lock; this needs 2^24 simultaneously open channels) *)
Theorem C23_full_map_diverges :
  forall bits live, 0 <= bits -> (forall x, in_range bits x -> In x live) ->
    forall fuel c k, in_range bits c -> next_loop bits fuel live c k = None.
Proof.
  intros bits live Hb Hall. induction fuel as [|f IH]; intros c k Hc; cbn [next_loop];
    rewrite (proj2 (mem_In c live) (Hall c Hc)); [reflexivity|].
  apply IH. now apply bump_range.
Qed.
Print Assumptions C23_full_map_diverges.

(* histories of local opens and closes (open_channel chooses and registers the id in one
   critical section): live ids are always distinct and in range — no side condition,
   wrap-around included (c0 is arbitrary) *)
Theorem C23_unique_local :
  forall bits c0 ops s outs, 0 <= bits -> in_range bits c0 ->
    forallb local_only ops = true ->
    run bits false (init c0) ops [] = Some (s, outs) ->
    NoDup (live s) /\ (forall x, In x (live s) -> 0 <= x < 2 ^ bits).
Proof.
  intros bits c0 ops s outs Hb Hc Hl HR. rewrite <- run_local_bounded in HR by auto.
  apply run_inv in HR; [|assumption|now apply inv_init].
  split; apply HR.
Qed.
Print Assumptions C23_unique_local.

(* all histories (local opens, peer reservations, registrations, rejections, closes, any
   starting counter): as long as the counter travels fewer than 2^bits steps between a
   reservation and its registration (`run _ true` checks `window_ok` after every step: one step
   per allocation plus one per live id skipped), live ids are distinct, pending ids are
   distinct, no id is both, all are in range; every id handed out next is neither live nor
   pending; a registration registers an id that is not live *)
Theorem C23_unique :
  forall bits c0 ops s outs, 0 <= bits -> in_range bits c0 ->
    run bits true (init c0) ops [] = Some (s, outs) ->
    NoDup (live s) /\ NoDup (pend_ids (pending s)) /\
    (forall x, In x (live s) -> ~ In x (pend_ids (pending s))) /\
    (forall x, In x (live s) \/ In x (pend_ids (pending s)) -> 0 <= x < 2 ^ bits) /\
    (forall o s' out, step bits s o = SOk s' out -> window_ok bits s' = true ->
       match o with
       | LocalOpen | PeerReserve =>
           ~ In out (live s) /\ ~ In out (pend_ids (pending s)) /\ 0 <= out < 2 ^ bits
       | PeerRegister p => In p (pend_ids (pending s)) -> ~ In p (live s) /\ NoDup (live s')
       | _ => True
       end).
Proof. exact unique. Qed.
Print Assumptions C23_unique.

(* an id leaves the live map only by the close / unlink of that channel, or by an OPEN_FAILURE
   for a local open that is still waiting for its reply (its key is in channel_events) -- no
   other step, in particular no OPEN_FAILURE / OPEN_SUCCESS naming an established or unknown
   channel, removes a live entry (whose id could then be handed out again) *)
Theorem C23_only_close_or_failed_open_removes :
  forall bits s o s' out x,
    step bits s o = SOk s' out -> In x (live s) -> ~ In x (live s') ->
    o = Close x \/ (o = OpenFailure x /\ In x (opening s)).
Proof.
  intros bits s o s' out x HS Hl Hn.
  (* removing y from the map takes x out only if y = x *)
  assert (Hrm : forall y, ~ In x (remove_id y (live s)) -> y = x).
  { intros y Hy. destruct (Z.eq_dec y x) as [E|E]; [exact E|]. exfalso. apply Hy, In_remove_id. auto. }
  destruct o as [| |p|p|y|y|y]; cbn [step] in HS.
  - destruct (next_channel bits (live s) (counter s)) as [[[z c'] k]|]; [|discriminate].
    injection HS as <- <-. exfalso. apply Hn. now right.
  - destruct (next_channel bits (live s) (counter s)) as [[[z c'] k]|]; [|discriminate].
    injection HS as <- <-. contradiction.
  - destruct (mem p (pend_ids (pending s))); injection HS as <- <-; exfalso; apply Hn; cbn; auto.
  - injection HS as <- <-. contradiction.
  - injection HS as <- <-. left. f_equal. exact (Hrm y Hn).
  - destruct (mem y (live s)); injection HS as <- <-; contradiction.
  - destruct (mem y (opening s)) eqn:Em; injection HS as <- <-; [|contradiction].
    rewrite (Hrm y Hn) in *. right. split; [reflexivity | now apply mem_In].
Qed.
Print Assumptions C23_only_close_or_failed_open_removes.

(* why the bound is a hypothesis: with it dropped, uniqueness fails.  2-bit ids, counter
   at 1: three local opens (1, 2, 3), the peer's open reserves 0, ONE local open inside the
   window skips the three live ids, wraps and is given 0 as well; registering the peer's channel
   then puts id 0 in the map twice.  (So counting allocations alone is not enough: skipped live
   ids count too.)  On the real code this needs about 2^24 live-or-allocated ids inside one
   check_channel_request callback; recorded as a residual assumption, not claimed as a defect. *)
Theorem C23_window_witness :
  exists s outs,
    run 2 false (init 1) witness_ops [] = Some (s, outs) /\
    outs = [1; 2; 3; 0; 0; -1] /\ live s = [0; 0; 3; 2; 1] /\ ~ NoDup (live s) /\
    run 2 true (init 1) witness_ops [] = None.
Proof.
  eexists. eexists. split; [vm_compute; reflexivity|].
  split; [reflexivity|]. split; [reflexivity|]. split; [|vm_compute; reflexivity].
  cbn [live]. intros H. inversion H as [|? ? Hn _]. apply Hn. now left.
Qed.
Print Assumptions C23_window_witness.

(* non-vacuity: a bounded history across the 24-bit wrap-around with a pending window *)
Example C23_example :
  exists s outs,
    run BITS true (init 16777214)
        [LocalOpen; PeerReserve; LocalOpen; LocalOpen; PeerRegister 16777215; Close 0; LocalOpen] []
      = Some (s, outs) /\
    outs = [16777214; 16777215; 0; 1; -1; -1; 2] /\ live s = [2; 16777215; 1; 16777214].
Proof. eexists. eexists. split; [vm_compute; reflexivity|]. split; reflexivity. Qed.
