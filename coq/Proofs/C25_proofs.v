(* C25 — proofs about the sendall model (Model/C25.v).  Each layer of the model (the wait
   loop, _wait_for_send_window, send) gets one specification in three parts: what holds of
   every run (the configuration is kept, what an exception or a sleep says about the timeout),
   what well-formed input adds (the window stays non-negative, the size returned is in range). *)
From Coq Require Import ZArith List Bool Lia.
From PV Require Import Bytes ListFacts C25_gen C25.
Import ListNotations.
Open Scope Z_scope.

(* nothing in the model writes out_max_packet_size or self.timeout *)
Definition same_cfg (c c' : chan) : Prop := maxpkt c' = maxpkt c /\ timeout c' = timeout c.

Lemma same_cfg_refl c : same_cfg c c.
Proof. split; reflexivity. Qed.

Lemma same_cfg_trans a b c : same_cfg a b -> same_cfg b c -> same_cfg a c.
Proof. unfold same_cfg. intros [H1 H2] [H3 H4]. split; congruence. Qed.

Definition lchan (r : lres) : chan := match r with LOpen c | LZero c | LRaise _ c | LBlocked c => c end.
Definition wchan (r : wres) : chan := match r with WSize _ c | WRaise _ c | WBlocked c => c end.
Definition schan (r : sres) : chan := match r with SRet _ _ c | SRaise _ c | SBlocked c => c end.

Lemma chan_ok_iff c : chan_ok c = true <-> 0 <= window c /\ 64 < maxpkt c.
Proof. unfold chan_ok. rewrite andb_true_iff, Z.leb_le, Z.ltb_lt. tauto. Qed.

Lemma chan_ok_cfg c c' : same_cfg c c' -> chan_ok c = true -> 0 <= window c' -> chan_ok c' = true.
Proof. rewrite !chan_ok_iff. intros [Hm _] [_ H] Hw. split; [exact Hw|now rewrite Hm]. Qed.

Lemma apply_ev_cfg e : forall c, same_cfg c (apply_ev e c).
Proof.
  induction e as [n| | | | | |a IHa b IHb]; intros c; cbn [apply_ev];
    try (unfold close_internal; try destruct (closed c); split; reflexivity).
  eapply same_cfg_trans; [apply IHa | apply IHb].
Qed.

Lemma apply_evs_cfg es c : same_cfg c (apply_evs es c).
Proof.
  unfold apply_evs. revert c. induction es as [|e es IH]; intros c; cbn [fold_left].
  - apply same_cfg_refl.
  - eapply same_cfg_trans; [apply apply_ev_cfg | apply IH].
Qed.

Lemma apply_ev_window e : forall c, ev_ok e = true -> 0 <= window c -> 0 <= window (apply_ev e c).
Proof.
  induction e as [n| | | | | |a IHa b IHb]; intros c; cbn [apply_ev ev_ok]; intros He Hw;
    try (unfold close_internal; try destruct (closed c); cbn; lia).
  apply andb_true_iff in He as [Ha Hb]. apply IHb; [exact Hb | apply IHa; assumption].
Qed.

Lemma apply_evs_window es c :
  forallb ev_ok es = true -> 0 <= window c -> 0 <= window (apply_evs es c).
Proof.
  unfold apply_evs. revert c. induction es as [|e es IH]; intros c Hes Hw; cbn [fold_left].
  - exact Hw.
  - cbn [forallb] in Hes. apply andb_true_iff in Hes as [He Hes].
    apply IH; [exact Hes | now apply apply_ev_window].
Qed.

Definition loop_post (c : chan) (t : option Z) (wakes : list wake) (r : lres) : Prop :=
  same_cfg c (lchan r) /\
  match r with
  | LOpen c' => window c' <> 0
  | LZero c' => dead c' = true
  | LRaise e _ => e = SocketTimeout /\ t <> None
  | LBlocked _ => t = None
  end /\
  (forallb wake_ok wakes = true -> 0 <= window c -> 0 <= window (lchan r)).

Lemma wait_loop_spec wakes : forall c t, loop_post c t wakes (wait_loop c t wakes).
Proof.
  induction wakes as [|[e dt] r IH]; intros c t; unfold loop_post; cbn [wait_loop forallb];
    (destruct (window c =? 0) eqn:E0; [destruct (dead c) eqn:Ed|]);
    try (cbn; auto using same_cfg_refl with zarith; fail).
  - destruct t; cbn; repeat split; auto; discriminate.
  - set (c1 := match e with Some e0 => apply_ev e0 c | None => c end).
    assert (Hcfg : same_cfg c c1) by (destruct e; [apply apply_ev_cfg|apply same_cfg_refl]).
    assert (Hw : wake_ok (e, dt) = true -> 0 <= window c -> 0 <= window c1)
      by (destruct e; [apply apply_ev_window|auto]).
    assert (Hrec : forall t', (t' = None <-> t = None) ->
                     loop_post c t ((e, dt) :: r) (wait_loop c1 t' r)).
    { intros t' Ht. destruct (IH c1 t') as (H1 & H2 & H3).
      split; [exact (same_cfg_trans _ _ _ Hcfg H1)|split].
      - destruct (wait_loop c1 t' r); tauto.
      - cbn [forallb]. intros [? ?]%andb_true_iff ?. auto. }
    destruct t as [tv|]; [destruct (tv - dt <=? 0)|].
    + split; [exact Hcfg|split; [split; [reflexivity|discriminate]|]].
      intros [? ?]%andb_true_iff ?. cbn. auto.
    + apply Hrec. split; discriminate.
    + apply Hrec. tauto.
Qed.

Lemma take_window_spec c size :
  exists n c',
    take_window c size = WSize n c' /\ same_cfg c c' /\
    (0 < window c -> 64 < maxpkt c -> 0 < size ->
     0 <= window c' /\ ((n = 0 /\ dead c' = true) \/ 1 <= n <= size)).
Proof.
  unfold take_window. destruct (dead c) eqn:Ed; do 2 eexists;
    (split; [reflexivity|split; [split; reflexivity|]]); cbn [window]; intros Hw Hm Hs.
  - split; [lia|auto].
  - rewrite !if_ltb_min. lia.
Qed.

Definition wait_post (c : chan) (size : Z) (wakes : list wake) (r : wres) : Prop :=
  same_cfg c (wchan r) /\
  match r with
  | WSize _ _ => True
  | WRaise e _ => e = SocketTimeout /\ timeout c <> None
  | WBlocked _ => timeout c = None
  end /\
  (forallb wake_ok wakes = true -> chan_ok c = true -> 0 < size ->
   0 <= window (wchan r) /\
   match r with WSize n c' => (n = 0 /\ dead c' = true) \/ 1 <= n <= size | _ => True end).

Lemma wait_spec c size wakes : wait_post c size wakes (wait_for_send_window c size wakes).
Proof.
  unfold wait_for_send_window.
  destruct (dead c) eqn:Ed.
  { split; [apply same_cfg_refl|split; [exact I|]]. intros _ [Hw _]%chan_ok_iff _. cbn. auto. }
  destruct (window c =? 0) eqn:E0.
  - (* the result of the wait loop, for whatever value self.timeout has *)
    assert (Hgen : forall t, t = timeout c ->
              wait_post c size wakes
                match wait_loop c t wakes with
                | LOpen c' => take_window c' size
                | LZero c' => WSize 0 c'
                | LRaise e c' => WRaise e c'
                | LBlocked c' => WBlocked c'
                end).
    { intros t ->. destruct (wait_loop_spec wakes c (timeout c)) as (H1 & H2 & H3).
      unfold wait_post. rewrite chan_ok_iff.
      destruct (wait_loop c (timeout c) wakes) as [c'|c'|e' c'|c']; cbn in *;
        try (split; [exact H1|split; [first [exact I|exact H2]|]]; intros Hok [Hw _] _; split; auto; fail).
      destruct (take_window_spec c' size) as (n & c'' & -> & H4 & H5). cbn.
      split; [exact (same_cfg_trans _ _ _ H1 H4)|split; [exact I|]].
      intros Hok [Hw Hm] Hs. apply H5; [specialize (H3 Hok Hw); lia|destruct H1; lia|exact Hs]. }
    destruct (timeout c) as [[|p|p]|] eqn:Et; try (apply Hgen; reflexivity).
    split; [apply same_cfg_refl|split; [split; [reflexivity|rewrite Et; discriminate]|]].
    intros _ [Hw _]%chan_ok_iff _. cbn. auto.
  - destruct (take_window_spec c size) as (n & c' & -> & H1 & H2).
    split; [exact H1|split; [exact I|]]. intros _ [Hw Hm]%chan_ok_iff Hs. cbn. apply H2; lia.
Qed.

Lemma send_spec st c s r :
  let x := send st c s r in
  same_cfg c (schan x) /\
  match x with
  | SRet n out _ => (n = 0 /\ out = None) \/ (n <> 0 /\ out = Some (kind st, firstn (Z.to_nat n) s))
  | SRaise e c' => (e = SocketErr /\ closed c' = true) \/ (e = SocketTimeout /\ timeout c <> None)
  | SBlocked _ => timeout c = None
  end /\
  (chan_ok c = true -> round_ok r = true -> s <> [] ->
   chan_ok (schan x) = true /\
   match x with
   | SRet n _ c' => (n = 0 /\ dead c' = true) \/ 1 <= n <= Z.of_nat (length s)
   | _ => True
   end).
Proof.
  cbv zeta. unfold send, round_ok. set (c1 := apply_evs (fst r) c).
  assert (Hlen : s <> [] -> 0 < Z.of_nat (length s)) by (destruct s; [congruence|cbn [length]; lia]).
  assert (Hcfg1 : same_cfg c c1) by apply apply_evs_cfg.
  assert (Hok1 : chan_ok c = true -> forallb ev_ok (fst r) = true -> chan_ok c1 = true).
  { intros Hc Hpre. apply (chan_ok_cfg c); [assumption..|].
    apply apply_evs_window; [assumption|now apply chan_ok_iff in Hc]. }
  destruct (closed c1) eqn:Ecl.
  - cbn. split; [exact Hcfg1|split; [auto|]]. intros Hc [Hpre _]%andb_true_iff _. auto.
  - destruct (wait_spec c1 (Z.of_nat (length s)) (snd r)) as (H1 & H2 & H3).
    pose proof (same_cfg_trans _ _ _ Hcfg1 H1) as Hcfg2. destruct Hcfg1 as [_ Ht]. rewrite Ht in H2.
    destruct (wait_for_send_window c1 (Z.of_nat (length s)) (snd r)) as [n c2|e c2|c2]; cbn [wchan] in *.
    1: destruct (Z.eqb_spec n 0) as [->|Hn0].
    all: cbn [schan]; (split; [exact Hcfg2|split; [auto|]]).
    all: intros Hc [Hpre Hwk]%andb_true_iff Hs; destruct H3 as [Hw Hn]; auto.
    all: split; [apply (chan_ok_cfg c); assumption|auto].
Qed.

Lemma payload_app a b : payload (a ++ b) = payload a ++ payload b.
Proof. unfold payload. apply flat_map_app. Qed.

Definition conserves (st : bool) (s : list Z) (tr : list msg) (f : final) : Prop :=
  exists tr2, f_trace f = tr ++ tr2 /\ payload tr2 ++ f_rest f = s /\
              Forall (fun m => fst m = kind st) tr2 /\ (f_out f = Done <-> f_rest f = []).

Lemma conserves_stop st o c tr s : (o = Done <-> s = []) -> conserves st s tr (mkFinal o c tr s).
Proof. intros H. exists []. cbn. rewrite app_nil_r. auto. Qed.

Lemma sendall_conserves fuel : forall st c s rs tr, conserves st s tr (sendall fuel st c s rs tr).
Proof.
  induction fuel as [|fuel IH]; intros st c s rs tr; destruct s as [|x s]; cbn [sendall];
    try (apply conserves_stop; now split).
  destruct (send_spec st c (x :: s) (hd ([], []) rs)) as (_ & Hout & _).
  destruct (send st c (x :: s) (hd ([], []) rs)) as [n out c'|e c'|c'];
    try (apply conserves_stop; now split).
  destruct Hout as [[-> ->] | [Hn ->]]; [apply conserves_stop; now split|].
  rewrite (proj2 (Z.eqb_neq n 0) Hn). cbv beta iota zeta.
  set (m := (kind st, firstn (Z.to_nat n) (x :: s)) : msg).
  destruct (IH st c' (skipn (Z.to_nat n) (x :: s)) (tl rs) (tr ++ [m])) as (tr2 & H1 & H2 & H3 & H4).
  exists (m :: tr2).
  split; [rewrite H1, <- app_assoc; reflexivity|].
  split; [|split; [constructor; [reflexivity | exact H3]|exact H4]].
  change (payload (m :: tr2)) with (snd m ++ payload tr2).
  rewrite <- app_assoc, H2. apply firstn_skipn.
Qed.

Lemma total fuel st c s rs :
  let f := sendall fuel st c s rs [] in
  payload (f_trace f) ++ f_rest f = s /\
  Forall (fun m => fst m = kind st) (f_trace f) /\
  (f_out f = Done -> payload (f_trace f) = s /\ f_rest f = []) /\
  (f_out f <> Done -> f_rest f <> []).
Proof.
  cbn zeta. destruct (sendall_conserves fuel st c s rs []) as (tr2 & H1 & H2 & H3 & H4).
  cbn [app] in H1. rewrite H1. split; [exact H2|split; [exact H3|split; [|tauto]]].
  intros Hd%H4. rewrite Hd, app_nil_r in H2. auto.
Qed.

(* len(data) iterations suffice: every iteration that does not end the loop hands over a
   non-empty chunk. *)
Lemma sendall_ok fuel : forall st c s rs (tr : list msg),
  chan_ok c = true -> Forall (fun r => round_ok r = true) rs -> (length s <= fuel)%nat ->
  Forall (fun m => snd m <> []) tr ->
  let f := sendall fuel st c s rs tr in
  (f_out f = Done \/ f_out f = Raised SocketErr \/ f_out f = Raised SocketTimeout \/ f_out f = Blocked) /\
  Forall (fun m => snd m <> []) (f_trace f).
Proof.
  induction fuel as [|fuel IH]; intros st c s rs tr Hc Hrs Hlen Htr; destruct s as [|x s]; cbn [sendall];
    try (cbn; auto; fail).
  - cbn [length] in Hlen. lia.
  - assert (Hr : round_ok (hd ([], []) rs) = true) by (destruct Hrs; auto).
    assert (Hrs' : Forall (fun r => round_ok r = true) (tl rs)) by (destruct Hrs; [constructor|assumption]).
    destruct (send_spec st c (x :: s) (hd ([], []) rs)) as (_ & Hout & Hok).
    destruct Hok as [Hc' Hn]; [assumption|assumption|discriminate|].
    destruct (send st c (x :: s) (hd ([], []) rs)) as [n out c'|e c'|c']; cbn in *.
    + destruct Hout as [[-> ->] | [Hn0 ->]]; [cbn; auto|].
      rewrite (proj2 (Z.eqb_neq n 0) Hn0). destruct Hn as [[? _]|Hn]; [contradiction|].
      apply IH; auto.
      * pose proof (skipn_length_lt (Z.to_nat n) (x :: s)) as Hlt. cbn [length] in *.
        specialize (Hlt ltac:(lia) ltac:(discriminate)). lia.
      * apply Forall_app. split; [exact Htr|]. constructor; [|constructor].
        cbn [snd]. intros Hf%(f_equal (@length Z)).
        rewrite firstn_length in Hf. cbn [length] in Hf. lia.
    + destruct Hout as [[-> _] | [-> _]]; auto.
    + auto 6.
Qed.

Lemma terminates st c s rs :
  chan_ok c = true -> Forall (fun r => round_ok r = true) rs ->
  let f := sendall (length s) st c s rs [] in
  f_out f <> Fuel /\ Forall (fun m => snd m <> []) (f_trace f).
Proof.
  intros Hc Hrs. cbv zeta.
  destruct (sendall_ok (length s) st c s rs [] Hc Hrs (Nat.le_refl _) (Forall_nil _)) as [H1 H2].
  split; [|exact H2]. intros E. rewrite E in H1. now repeat destruct H1 as [H1|H1].
Qed.

Lemma outcomes fuel st c s rs :
  chan_ok c = true -> Forall (fun r => round_ok r = true) rs -> (length s <= fuel)%nat ->
  let f := sendall fuel st c s rs [] in
  f_out f = Done \/ f_out f = Raised SocketErr \/ f_out f = Raised SocketTimeout \/ f_out f = Blocked.
Proof. intros Hc Hrs Hlen. now apply sendall_ok. Qed.
