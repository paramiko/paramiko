(* C02 proofs: what a delivered message was authenticated by.
   deliver_inv reads off the reader's definition what had to succeed before a payload came out;
   the single-step lemmas add that the authenticated event determines payload and next state; the
   whole-stream induction (honest_step, prefix_core) is over the adversary's run, each accepted
   event being matched, by its nonce, with the step of the honest run that produced it. *)
From PV Require Import Bytes ListFacts C01 C01_proofs C02.
From Coq Require Import ZArith List Bool Lia.
Import ListNotations.
Open Scope Z_scope.

Section Inv.
Variable P : prims.
Notation FS := (list Z).

Lemma rbind_take_inv A n (f : list Z -> reader FS A) buf a rest :
  rbind FS (rtake FS ftake n) f buf = Done a rest ->
  exists x buf', ftake n buf = Some (x, buf') /\ f x buf' = Done a rest.
Proof. unfold rbind, rtake. destruct (ftake n buf) as [[x buf']|]; [eauto|discriminate]. Qed.

Lemma rlift_inv A (x : result A) buf a rest : rlift FS x buf = Done a rest -> x = Ok a.
Proof. destruct x; unfold rlift, rret, rfail; congruence. Qed.

Lemma finish_inv r m sz pk ev p ev' r' :
  finish P r m sz pk ev = Ok (p, ev', r') -> ev' = ev /\ p_mode r' = m.
Proof.
  unfold finish. destruct pk as [|pad pk]; [discriminate|]. intros H.
  apply bind_ok in H as (pz & _ & H).
  destruct (((p_seq r + 1) mod 2 ^ 32 =? 0) && negb (p_kex r)); [discriminate|].
  destruct (fst pz); [discriminate|]. injection H as _ <- <-. auto.
Qed.

Lemma ftake_bytes n buf x rest : bytes_ok buf = true -> ftake n buf = Some (x, rest) -> bytes_ok x = true.
Proof.
  intros Hb H. apply ftake_inv in H as [-> _]. rewrite bytes_ok_app in Hb.
  now apply andb_true_iff in Hb as [Hx _].
Qed.

Lemma be4_range l : bytes_ok l = true -> 0 <= be_decode (firstn 4 l) < 2 ^ 32.
Proof.
  intros Hb. pose proof (be_decode_range (firstn 4 l) (bytes_ok_firstn 4 l Hb)) as R.
  assert (L : (length (firstn 4 l) <= 4)%nat) by (rewrite firstn_length; lia).
  assert (256 ^ Z.of_nat (length (firstn 4 l)) <= 256 ^ 4) by (apply Z.pow_le_mono_r; lia).
  change (256 ^ 4) with (2 ^ 32) in *. lia.
Qed.

(* in encrypt-then-MAC mode the length field is read in the clear, so from a byte stream it is a
   32-bit value *)
Lemma deliver_inv r buf p ev r' rest :
  read_message P FS ftake r buf = Done (p, ev, r') rest ->
  match p_mode r with
  | Plain => True
  | Classic c k =>
      0 < p_msz r ->
      exists size packet tag m',
        ev = EvMac (mac_input (p_seq r) size packet) tag /\
        constant_time_bytes_eq (mac_tag P k (p_msz r) (mac_input (p_seq r) size packet)) tag = true /\
        finish P r m' size packet ev = Ok (p, ev, r')
  | Etm c k =>
      exists size packet tag,
        (bytes_ok buf = true -> 0 <= size < 2 ^ 32) /\
        ev = EvMac (mac_input (p_seq r) size packet) tag /\
        constant_time_bytes_eq (mac_tag P k (p_msz r) (mac_input (p_seq r) size packet)) tag = true /\
        finish P r (Etm (snd (c_dec P c packet)) k) size (fst (c_dec P c packet)) ev = Ok (p, ev, r')
  | Aead k iv =>
      exists aad ct pt iv',
        ev = EvAead iv aad ct /\ a_dec P k iv ct aad = Some pt /\ inc_iv iv = Ok iv' /\
        finish P r (Aead k iv') (be_decode aad) pt ev = Ok (p, ev, r')
  end.
Proof.
  intros H. apply rbind_take_inv in H as (h & b1 & Hh & H). unfold read_body in H.
  destruct (p_mode r) as [|c k|c k|k iv] eqn:Em; [exact I| | |].
  - intros Hm. unfold read_classic in H. rewrite Em in H. cbv beta iota zeta in H.
    destruct (negb (_ =? 0)); [discriminate|].
    apply rbind_take_inv in H as (more & b2 & _ & H). cbv beta iota zeta in H.
    destruct (0 <? p_msz r) eqn:E; [|lia].
    destruct (constant_time_bytes_eq _ _) eqn:Ec in H; [|discriminate].
    apply rlift_inv in H. destruct (finish_inv _ _ _ _ _ _ _ _ H) as [-> _]. do 4 eexists. eauto.
  - apply rbind_take_inv in H as (more & b2 & _ & H). apply rbind_take_inv in H as (mac & b3 & _ & H).
    destruct (constant_time_bytes_eq _ _) eqn:Ec in H; [|discriminate].
    apply rlift_inv in H. destruct (finish_inv _ _ _ _ _ _ _ _ H) as [-> _].
    do 3 eexists. split; [|eauto]. intros Hb. apply be4_range. eapply ftake_bytes; eauto.
  - apply rbind_take_inv in H as (more & b2 & _ & H).
    destruct (a_dec P k iv _ _) eqn:Ea in H; [|discriminate]. apply rlift_inv in H.
    apply bind_ok in H as (iv' & Ei & H).
    destruct (finish_inv _ _ _ _ _ _ _ _ H) as [-> _]. do 4 eexists. eauto.
Qed.

Lemma mac_event_inj seq sz pk tg sz2 pk2 tg2 :
  EvMac (mac_input seq sz pk) tg = EvMac (mac_input seq sz2 pk2) tg2 ->
  sz mod 2 ^ 32 = sz2 mod 2 ^ 32 /\ pk = pk2 /\ tg = tg2.
Proof.
  intros E. assert (Em : mac_input seq sz pk = mac_input seq sz2 pk2) by congruence.
  assert (Et : tg = tg2) by congruence. unfold mac_input in Em.
  apply app_inv_head, app_len_inj in Em as [Es Ep]; [|now rewrite !be_encode_length].
  apply (f_equal be_decode) in Es. rewrite !be_decode_encode_mod in Es. auto.
Qed.

(* a stream T accepted with the (iv, aad, ciphertext) of the sender's W delivers the sender's message *)
Theorem aead_step r k iv T W p ev r' rest ph evh rh resth :
  p_mode r = Aead k iv ->
  read_message P FS ftake r T = Done (p, ev, r') rest ->
  read_message P FS ftake r W = Done (ph, evh, rh) resth ->
  ev = evh -> p = ph /\ r' = rh.
Proof.
  intros Em H1 H2 E. apply deliver_inv in H1. apply deliver_inv in H2. rewrite Em in H1, H2.
  destruct H1 as (aad & ct & pt & iv1 & E1 & D1 & I1 & F1).
  destruct H2 as (aad2 & ct2 & pt2 & iv2 & E2 & D2 & I2 & F2).
  rewrite E1 in F1, E. rewrite E2 in F2, E. injection E as <- <-. clear E1 E2. rewrite D1 in D2. injection D2 as <-.
  rewrite I1 in I2. injection I2 as <-. rewrite F1 in F2. injection F2 as <- <-. auto.
Qed.

Theorem etm_step r c k T W p ev r' rest ph evh rh resth :
  p_mode r = Etm c k -> bytes_ok T = true -> bytes_ok W = true ->
  read_message P FS ftake r T = Done (p, ev, r') rest ->
  read_message P FS ftake r W = Done (ph, evh, rh) resth ->
  ev = evh -> p = ph /\ r' = rh.
Proof.
  intros Em B1 B2 H1 H2 E. apply deliver_inv in H1. apply deliver_inv in H2. rewrite Em in H1, H2.
  destruct H1 as (sz & pk & tg & R1 & -> & _ & F1). destruct H2 as (sz2 & pk2 & tg2 & R2 & -> & _ & F2).
  apply mac_event_inj in E as (Hs & <- & <-).
  rewrite !Z.mod_small in Hs by auto. subst sz2. rewrite F1 in F2. injection F2 as <- <-. auto.
Qed.

Lemma nonce_delivered r T p ev r' rest :
  protected r -> read_message P FS ftake r T = Done (p, ev, r') rest ->
  ev_nonce ev = state_nonce r /\ protected r'.
Proof.
  intros Hp H. apply deliver_inv in H. unfold protected, state_nonce in *.
  destruct (p_mode r) as [|c k|c k|k iv]; try contradiction.
  - destruct H as (size & pk & tag & _ & -> & _ & F). apply finish_inv in F as [_ F]. rewrite F.
    split; [apply firstn4_be|exact I].
  - destruct H as (aad & ct & pt & iv' & -> & _ & _ & F). apply finish_inv in F as [_ F]. rewrite F.
    split; [reflexivity|exact I].
Qed.

Lemma step_protected r T W p ev r' rest ph evh rh resth :
  protected r -> bytes_ok T = true -> bytes_ok W = true ->
  read_message P FS ftake r T = Done (p, ev, r') rest ->
  read_message P FS ftake r W = Done (ph, evh, rh) resth ->
  ev = evh -> p = ph /\ r' = rh.
Proof.
  intros Hp B1 B2 H1 H2 E. unfold protected in Hp. destruct (p_mode r) as [|c k|c k|k iv] eqn:Em; try contradiction.
  - exact (etm_step r c k T W p ev r' rest ph evh rh resth Em B1 B2 H1 H2 E).
  - exact (aead_step r k iv T W p ev r' rest ph evh rh resth Em H1 H2 E).
Qed.

Lemma rest_bytes r T x rest :
  read_message P FS ftake r T = Done x rest -> bytes_ok T = true -> bytes_ok rest = true.
Proof.
  intros H B. destruct (mono_read_message P r _ _ _ H) as (c & -> & _). rewrite bytes_ok_app in B.
  now apply andb_true_iff in B as [_ B].
Qed.

Lemma log_nonces : forall fuel r W ps log fi rf sf,
  protected r -> read_many P FS ftake fuel r W = (ps, log, fi, rf, sf) ->
  forall e, In e log -> In (ev_nonce e) (honest_nonces P fuel r W).
Proof.
  induction fuel as [|f IH]; intros r W ps log fi rf sf Hp H e He.
  - cbn in H. injection H as _ <- _ _ _. destruct He.
  - cbn [read_many] in H. cbn [honest_nonces]. unfold read_message_flat.
    destruct (read_message P FS ftake r W) as [| x | [[p ev] r'] W'] eqn:E.
    + injection H as _ <- _ _ _. destruct He.
    + injection H as _ <- _ _ _. destruct He.
    + destruct (nonce_delivered r W p ev r' W' Hp E) as [Hn Hp'].
      destruct (read_many P FS ftake f r' W') as [[[[ps1 log1] fi1] rf1] sf1] eqn:E2.
      injection H as _ <- _ _ _. destruct He as [<- | He].
      * left. now symmetry.
      * right. eapply IH; eauto.
Qed.

(* The nonce of an event ev accepted in state r is r's, the head of the honest run's remaining
   nonces.  The events `done` of earlier states and the later events of the log carry other entries
   of one duplicate-free list; so if the sender produced ev, the honest run makes a step here and
   ev is its event. *)
Lemma honest_step fuelh r W done psh log fih rfh sfh ev :
  read_many P FS ftake fuelh r W = (psh, log, fih, rfh, sfh) ->
  NoDup (map ev_nonce done ++ honest_nonces P fuelh r W) ->
  protected r -> In ev (done ++ log) -> ev_nonce ev = state_nonce r ->
  exists fh ph rh Wh, fuelh = S fh /\ read_message P FS ftake r W = Done (ph, ev, rh) Wh.
Proof.
  intros Hh Hnd Hp Hin Hn.
  assert (Hfresh : ~ In (ev_nonce ev) (map ev_nonce done ++ tl (honest_nonces P fuelh r W))).
  { rewrite Hn. apply NoDup_remove_2. destruct fuelh; exact Hnd. }
  apply in_app_or in Hin as [Hin|Hin].
  { elim Hfresh. apply in_or_app. left. now apply in_map. }
  destruct fuelh as [|fh]; cbn [read_many honest_nonces tl] in Hh, Hfresh.
  { injection Hh as _ <- _ _ _. destruct Hin. }
  unfold read_message_flat in Hfresh.
  destruct (read_message P FS ftake r W) as [| x | [[ph evh] rh] Wh] eqn:Eh.
  1,2: injection Hh as _ <- _ _ _; destruct Hin.
  destruct (read_many P FS ftake fh rh Wh) as [[[[psh1 log1] fih1] rfh1] sfh1] eqn:Eh2.
  injection Hh as _ <- _ _ _. destruct Hin as [<- | Hin]; [exists fh, ph, rh, Wh; split; reflexivity|].
  elim Hfresh. apply in_or_app. right.
  destruct (nonce_delivered r W ph evh rh Wh Hp Eh) as [_ Hph]. eapply log_nonces; eauto.
Qed.

Lemma prefix_core : forall fuel fuelh r W done psh log fih rfh sfh T ps acc fi rf sf,
  read_many P FS ftake fuelh r W = (psh, log, fih, rfh, sfh) ->
  NoDup (map ev_nonce done ++ honest_nonces P fuelh r W) ->
  protected r -> bytes_ok W = true -> bytes_ok T = true ->
  read_many P FS ftake fuel r T = (ps, acc, fi, rf, sf) ->
  Forall (fun e => In e (done ++ log)) acc -> is_prefix ps psh.
Proof.
  induction fuel as [|f IH]; intros fuelh r W done psh log fih rfh sfh T ps acc fi rf sf Hh Hnd Hp BW BT Ha Hacc;
    cbn [read_many] in Ha.
  { injection Ha as <- _ _ _ _. exists psh. reflexivity. }
  destruct (read_message P FS ftake r T) as [| x | [[p ev] r'] T'] eqn:E.
  1,2: injection Ha as <- _ _ _ _; exists psh; reflexivity.
  destruct (read_many P FS ftake f r' T') as [[[[ps1 acc1] fi1] rf1] sf1] eqn:Ea.
  injection Ha as <- <- _ _ _. inversion Hacc as [|? ? Hin Hacc']; subst.
  destruct (nonce_delivered r T p ev r' T' Hp E) as [Hn Hp'].
  destruct (honest_step fuelh r W done psh log fih rfh sfh ev Hh Hnd Hp Hin Hn) as (fh & ph & rh & Wh & -> & Eh).
  cbn [read_many honest_nonces] in Hh, Hnd. unfold read_message_flat in Hnd. rewrite Eh in Hh, Hnd.
  destruct (read_many P FS ftake fh rh Wh) as [[[[psh1 log1] fih1] rfh1] sfh1] eqn:Eh2.
  injection Hh as <- <- <- <- <-.
  destruct (step_protected r T W p ev r' T' ph ev rh Wh Hp BT BW E Eh eq_refl) as [<- <-].
  enough (is_prefix ps1 psh1) as [t ->] by (exists t; reflexivity).
  apply (IH fh r' Wh (done ++ [ev]) psh1 log1 fih1 rfh1 sfh1 T' ps1 acc1 fi1 rf1 sf1 Eh2); auto.
  - (* ev's nonce moves from the head of the remaining nonces to the end of the used ones *)
    rewrite map_app, <- app_assoc. cbn [map app]. rewrite Hn. exact Hnd.
  - exact (rest_bytes _ _ _ _ Eh BW).
  - exact (rest_bytes _ _ _ _ E BT).
  - now rewrite <- app_assoc.
Qed.
End Inv.

(* non-vacuity of the distinctness hypothesis, on the toy primitives *)
Definition ex_cfg := Cfg 2 8 8 5 [1;2;3;4;5;6;7;8] [9;9] 0 [] false None.
Definition ex_wire : list Z :=
  concat (fst (fst (send_many (cfg_apply (init_state 0 true) ex_cfg) [([7;1;2], []); ([8], []); ([9;9], [])]))).

Lemma fold_xor_acc : forall a b res,
  fold_left (fun r xy => Z.lor r (Z.lxor (fst xy) (snd xy))) (combine a b) res = xor_acc res a b.
Proof.
  induction a as [|x a IH]; intros [|y b] res; cbn; try reflexivity. apply IH.
Qed.

Fixpoint first_pos (x : Z) (l : list Z) (i : Z) : Z :=
  match l with [] => -1 | y :: r => if y =? x then i else first_pos x r (i + 1) end.
Fixpoint last_pos (x : Z) (l : list Z) (i acc : Z) : Z :=
  match l with [] => acc | y :: r => last_pos x r (i + 1) (if y =? x then i else acc) end.
Definition present (x : Z) (l : list Z) : bool := 0 <=? first_pos x l 0.
Definition before (x y : Z) (l : list Z) : bool :=      (* every x precedes every y; both occur *)
  present x l && present y l && (last_pos x l 0 (-1) <? first_pos y l 0).

(* every tag check (1 ETM, 3 AEAD decrypt, 5 classic) precedes every use of the packet contents
   (6 payload slice, 7 decompress, 8 Message, 10 return); the ETM check precedes any decryption (2);
   the sequence number is stored (9) after the checks and before the return *)
Definition read_order_ok (l : list Z) : bool :=
  forallb (fun c => forallb (fun u => before c u l) [6; 7; 8; 9; 10]) [1; 3; 5] &&
  (last_pos 1 l 0 (-1) <? first_pos 2 l 0) && before 3 4 l && before 6 7 l && before 7 8 l && before 8 10 l.
