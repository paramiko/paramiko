(* The invariant Inv (live and pending ids distinct, disjoint and in range; each pending id knows how
   far the counter has travelled since its reservation) is kept by every step that keeps the
   window bound.  The bound is used in alloc_fresh: to be handed a pending id, the counter would
   have to travel a whole turn of the circle.  Termination of the search is a counting argument
   (next_loop_total). *)
From Coq Require Import ZArith List Bool Lia.
From PV Require Import Bytes ListFacts C23_gen C23.
Import ListNotations.
Open Scope Z_scope.

Arguments Z.pow : simpl never.
Arguments Z.ones : simpl never.
Arguments Z.land : simpl never.

Lemma bump_mod bits x : 0 <= bits -> bump bits x = (x + 1) mod 2 ^ bits.
Proof. intros. unfold bump. apply Z.land_ones. assumption. Qed.

Lemma bump_range bits x : 0 <= bits -> in_range bits (bump bits x).
Proof. intros H. rewrite bump_mod by assumption. apply Z.mod_pos_bound. now apply Z.pow_pos_nonneg. Qed.

Lemma mem_In x l : mem x l = true <-> In x l.
Proof. apply (existsb_eqb_In Z.eqb_eq). Qed.

Lemma mem_false x l : mem x l = false <-> ~ In x l.
Proof. apply (existsb_eqb_nIn Z.eqb_eq). Qed.

Lemma next_loop_spec bits fuel live : 0 <= bits -> forall c k x k',
  in_range bits c ->
  next_loop bits fuel live c k = Some (x, k') ->
  ~ In x live /\ in_range bits x /\ 0 <= k' - k <= Z.of_nat fuel /\
  x = (c + (k' - k)) mod 2 ^ bits.
Proof.
  intros Hb. induction fuel as [|f IH]; intros c k x k' Hc H; cbn [next_loop] in H;
    (destruct (mem c live) eqn:Em;
     [|injection H as <- <-; apply mem_false in Em;
       rewrite Z.sub_diag, Z.add_0_r, Z.mod_small by exact Hc; repeat split; try apply Hc; auto; lia]).
  - discriminate.
  - apply IH in H as (H1 & H2 & H3 & H4); [|now apply bump_range].
    repeat split; try apply H2; auto; try lia.
    rewrite H4, bump_mod, Zplus_mod_idemp_l by assumption. f_equal. lia.
Qed.

Lemma next_channel_spec bits live c x c' k : 0 <= bits -> in_range bits c ->
  next_channel bits live c = Some (x, c', k) ->
  ~ In x live /\ in_range bits x /\ in_range bits c' /\ 0 <= k <= Z.of_nat (length live) /\
  x = (c + k) mod 2 ^ bits /\ c' = (c + k + 1) mod 2 ^ bits.
Proof.
  intros Hb Hc H. unfold next_channel, next_fuel in H.
  destruct (next_loop bits (length live) live c 0) as [[y j]|] eqn:E; [|discriminate].
  injection H as <- <- <-.
  apply next_loop_spec in E as (H1 & H2 & H3 & H4); try assumption. rewrite Z.sub_0_r in *.
  repeat split; try apply H2; auto using bump_range; try lia; try apply bump_range; auto.
  rewrite bump_mod, H4, Zplus_mod_idemp_l by assumption. reflexivity.
Qed.

(* Termination of the search, by counting: the ids c0, c0+1, ... visited so far are distinct
   and all live, so there cannot be more of them than live has entries. *)
Lemma next_loop_total bits live : 0 <= bits ->
  Z.of_nat (length live) < 2 ^ bits ->
  forall fuel j c0 k,
    (j + fuel = length live)%nat -> 0 <= c0 ->
    (forall i, (i < j)%nat -> In ((c0 + Z.of_nat i) mod 2 ^ bits) live) ->
    next_loop bits fuel live ((c0 + Z.of_nat j) mod 2 ^ bits) k <> None.
Proof.
  intros Hb Hlen. pose proof (Z.pow_pos_nonneg 2 bits Z.lt_0_2 Hb) as HM.
  induction fuel as [|f IH]; intros j c0 k Hj Hc0 Hvis; cbn [next_loop];
    (destruct (mem ((c0 + Z.of_nat j) mod 2 ^ bits) live) eqn:Em; [apply mem_In in Em|discriminate]).
  - exfalso.
    set (V := map (fun i => (c0 + Z.of_nat i) mod 2 ^ bits) (seq 0 (S j))).
    assert (HV : NoDup V).
    { apply NoDup_map_seq. intros a b Ha Hb' Hab.
      destruct (Nat.le_ge_cases a b) as [Hle|Hle].
      - symmetry in Hab. apply mod_inj in Hab; lia.
      - apply mod_inj in Hab; lia. }
    assert (HI : incl V live).
    { intros y Hy. apply in_map_iff in Hy as (i & <- & Hi). apply in_seq in Hi.
      destruct (Nat.eq_dec i j) as [->|Hne]; [exact Em | apply Hvis; lia]. }
    pose proof (NoDup_incl_length HV HI) as HL. unfold V in HL.
    rewrite map_length, seq_length in HL. lia.
  - rewrite bump_mod, Zplus_mod_idemp_l by assumption.
    replace (c0 + Z.of_nat j + 1) with (c0 + Z.of_nat (S j)) by lia.
    apply IH; try lia.
    intros i Hi. destruct (Nat.eq_dec i j) as [->|Hne]; [exact Em | apply Hvis; lia].
Qed.

Lemma pend_ids_travel d l : pend_ids (travel d l) = pend_ids l.
Proof. unfold pend_ids, travel. rewrite map_map. apply map_ext. reflexivity. Qed.

Lemma In_travel d l q t : In (q, t) (travel d l) <-> In (q, t - d) l.
Proof.
  unfold travel. rewrite in_map_iff. split.
  - intros ([q0 t0] & [= <- <-] & Hin). now replace (t0 + d - d) with t0 by lia.
  - intros Hin. exists (q, t - d). split; [cbn; f_equal; lia | exact Hin].
Qed.

Lemma incl_drop p l : incl (drop_pending p l) l.
Proof.
  induction l as [|[q0 t0] r IH]; cbn [drop_pending]; [apply incl_refl|].
  destruct (q0 =? p); [apply incl_tl, incl_refl | apply incl_cons; [now left | apply incl_tl, IH]].
Qed.

Lemma NoDup_ids_drop p l : NoDup (pend_ids l) -> NoDup (pend_ids (drop_pending p l)).
Proof.
  induction l as [|[q0 t0] r IH]; cbn [drop_pending pend_ids map]; intros H; [constructor|].
  inversion H as [|? ? Hn Hr]; subst. destruct (q0 =? p); [exact Hr|].
  cbn [map fst]. constructor; [|apply IH; exact Hr].
  intros Hin. apply Hn. revert Hin. apply incl_map, incl_drop.
Qed.

Lemma drop_removes p l : NoDup (pend_ids l) -> ~ In p (pend_ids (drop_pending p l)).
Proof.
  induction l as [|[q0 t0] r IH]; cbn [drop_pending pend_ids map]; intros H; [intros Hin; exact Hin|].
  inversion H as [|? ? Hn Hr]; subst. cbn [fst] in Hn. destruct (q0 =? p) eqn:E.
  - apply Z.eqb_eq in E. subst q0. exact Hn.
  - cbn [map fst]. intros [Hq|Hin]; [lia | now apply IH in Hin].
Qed.

Lemma remove_id_filter x l : remove_id x l = filter (fun y => negb (y =? x)) l.
Proof. induction l as [|z r IH]; cbn; [reflexivity|]. destruct (z =? x); cbn; now rewrite IH. Qed.

Lemma In_remove_id x y l : In y (remove_id x l) <-> In y l /\ y <> x.
Proof. now rewrite remove_id_filter, filter_In, negb_true_iff, Z.eqb_neq. Qed.

Lemma NoDup_remove_id x l : NoDup l -> NoDup (remove_id x l).
Proof. rewrite remove_id_filter. apply NoDup_filter. Qed.

Record Inv (bits : Z) (s : st) : Prop := mkInv {
  inv_counter : in_range bits (counter s);
  inv_live_range : forall x, In x (live s) -> in_range bits x;
  inv_pend_range : forall x, In x (pend_ids (pending s)) -> in_range bits x;
  inv_live_nodup : NoDup (live s);
  inv_pend_nodup : NoDup (pend_ids (pending s));
  inv_disjoint : forall x, In x (live s) -> In x (pend_ids (pending s)) -> False;
  inv_travel : forall p t, In (p, t) (pending s) ->
                 0 <= t /\ counter s = (p + 1 + t) mod 2 ^ bits
}.

Lemma inv_init bits c0 : in_range bits c0 -> Inv bits (init c0).
Proof.
  intros H. constructor; cbn; try tauto; try constructor; try exact H.
Qed.

Lemma inv_shrink bits s live' pend' op' :
  Inv bits s -> incl live' (live s) -> NoDup live' -> incl pend' (pending s) -> NoDup (pend_ids pend') ->
  Inv bits (mkSt (counter s) live' pend' op').
Proof.
  intros HI Hl Hnl Hp Hnp.
  assert (Hp' : incl (pend_ids pend') (pend_ids (pending s))) by now apply incl_map.
  constructor; cbn [counter live pending]; try assumption; try apply HI.
  - intros x Hx. now apply (inv_live_range bits s HI), Hl.
  - intros x Hx. now apply (inv_pend_range bits s HI), Hp'.
  - intros x Hx Hx'. exact (inv_disjoint bits s HI x (Hl x Hx) (Hp' x Hx')).
  - intros p t Hin. now apply (inv_travel bits s HI), Hp.
Qed.

Lemma travel_bound bits d pend pend' :
  incl (travel d pend) pend' -> forallb (fun pt => snd pt <? 2 ^ bits) pend' = true ->
  forall p t, In (p, t) pend -> t + d < 2 ^ bits.
Proof.
  intros Hi H p t Hin. rewrite forallb_forall in H.
  specialize (H (p, t + d)). cbn [snd] in H. apply Z.ltb_lt, H, Hi, In_travel.
  now replace (t + d - d) with t by lia.
Qed.

Lemma alloc_fresh bits s x c' k : 0 <= bits -> Inv bits s ->
  next_channel bits (live s) (counter s) = Some (x, c', k) ->
  (forall p t, In (p, t) (pending s) -> t + (k + 1) < 2 ^ bits) ->
  ~ In x (live s) /\ ~ In x (pend_ids (pending s)) /\ in_range bits x.
Proof.
  intros Hb HI HN Hbound. pose proof (Z.pow_pos_nonneg 2 bits Z.lt_0_2 Hb) as HM.
  apply next_channel_spec in HN as (Hnl & Hxr & _ & Hk & Hx & _); [|assumption|apply HI].
  split; [exact Hnl|]. split; [|exact Hxr]. intros Hin.
  unfold pend_ids in Hin. apply in_map_iff in Hin as ([p t] & Hp & Hpt). cbn in Hp. subst p.
  pose proof (inv_travel bits s HI x t Hpt) as [Ht Hc].
  specialize (Hbound x t Hpt).
  rewrite Hc, Zplus_mod_idemp_l in Hx.
  assert (Hmod : (x + 1 + t + k) mod 2 ^ bits = x mod 2 ^ bits)
    by (rewrite <- Hx; symmetry; apply Z.mod_small; exact Hxr).
  apply mod_inj in Hmod; lia.
Qed.

(* the bound checked on the new state is the bound on how far this allocation may travel *)
Lemma alloc_step bits s (reg : bool) s' out :
  step bits s (if reg then LocalOpen else PeerReserve) = SOk s' out -> window_ok bits s' = true ->
  exists c' k,
    next_channel bits (live s) (counter s) = Some (out, c', k) /\
    (forall p t, In (p, t) (pending s) -> t + (k + 1) < 2 ^ bits) /\
    s' = if reg then mkSt c' (out :: live s) (travel (k + 1) (pending s)) (out :: opening s)
         else mkSt c' (live s) ((out, 0) :: travel (k + 1) (pending s)) (opening s).
Proof.
  intros HS HW. destruct reg; cbn [step] in HS;
    (destruct (next_channel bits (live s) (counter s)) as [[[x c'] k]|]; [|discriminate]);
    injection HS as <- <-; exists c', k; (split; [reflexivity|]); (split; [|reflexivity]).
  - exact (travel_bound bits _ _ _ (incl_refl _) HW).
  - exact (travel_bound bits _ _ _ (incl_tl _ (incl_refl _)) HW).
Qed.

Lemma alloc_step_fresh bits s (reg : bool) s' out : 0 <= bits -> Inv bits s ->
  step bits s (if reg then LocalOpen else PeerReserve) = SOk s' out -> window_ok bits s' = true ->
  ~ In out (live s) /\ ~ In out (pend_ids (pending s)) /\ in_range bits out.
Proof.
  intros Hb HI HS HW. destruct (alloc_step bits s reg s' out HS HW) as (c' & k & HN & Hbound & _).
  exact (alloc_fresh bits s out c' k Hb HI HN Hbound).
Qed.

Lemma step_alloc_inv bits s (reg : bool) s' out : 0 <= bits -> Inv bits s ->
  step bits s (if reg then LocalOpen else PeerReserve) = SOk s' out -> window_ok bits s' = true ->
  Inv bits s'.
Proof.
  intros Hb HI HS HW. pose proof (Z.pow_pos_nonneg 2 bits Z.lt_0_2 Hb) as HM.
  destruct (alloc_step bits s reg s' out HS HW) as (c' & k & HN & Hbound & ->). rename out into x.
  destruct (alloc_fresh bits s x c' k Hb HI HN Hbound) as (Hnl & Hnp & Hxr).
  apply next_channel_spec in HN as (_ & _ & Hcr & Hk & Hx & Hc'); [|assumption|apply HI].
  assert (Htr : forall p t, In (p, t) (travel (k + 1) (pending s)) ->
                  0 <= t /\ c' = (p + 1 + t) mod 2 ^ bits).
  { intros p t Hin%In_travel.
    pose proof (inv_travel bits s HI p _ Hin) as [Ht Hc]. split; [lia|].
    rewrite Hc', <- Z.add_assoc, Hc, Zplus_mod_idemp_l. f_equal. lia. }
  destruct reg; constructor; cbn [counter live pending pend_ids map fst];
    fold (pend_ids (travel (k + 1) (pending s))); rewrite ?pend_ids_travel;
    try exact Hcr; try exact Htr; try apply HI.
  - intros y [<-|Hy]; [exact Hxr | now apply (inv_live_range bits s HI)].
  - constructor; [exact Hnl | apply HI].
  - intros y [<-|Hy] Hp; [now apply Hnp | now apply (inv_disjoint bits s HI y)].
  - intros y [<-|Hy]; [exact Hxr | now apply (inv_pend_range bits s HI)].
  - constructor; [exact Hnp | apply HI].
  - intros y Hl [<-|Hp]; [now apply Hnl | now apply (inv_disjoint bits s HI y)].
  - intros p t [[= <- <-]|Hin]; [|now apply Htr].
    split; [lia|]. rewrite Hc', Hx, Z.add_0_r, Zplus_mod_idemp_l. reflexivity.
Qed.

Lemma step_inv bits s o s' out : 0 <= bits -> Inv bits s ->
  step bits s o = SOk s' out -> window_ok bits s' = true -> Inv bits s'.
Proof.
  intros Hb HI HS HW.
  pose proof (inv_live_nodup _ _ HI) as Hnl. pose proof (inv_pend_nodup _ _ HI) as Hnp.
  destruct o as [| |p|p|x|x|x];
    [exact (step_alloc_inv bits s true s' out Hb HI HS HW)
    |exact (step_alloc_inv bits s false s' out Hb HI HS HW) |..]; cbn [step] in HS.
  - destruct (mem p (pend_ids (pending s))) eqn:Em; injection HS as <- <-; [|exact HI].
    (* the id moves from pending to live *)
    apply mem_In in Em.
    pose proof (inv_shrink bits s (live s) (drop_pending p (pending s)) (opening s) HI
                  (incl_refl _) Hnl (incl_drop _ _) (NoDup_ids_drop _ _ Hnp)) as HI'.
    constructor; cbn [counter live pending]; try apply HI'.
    + intros y [<-|Hy]; [now apply (inv_pend_range bits s HI) | now apply (inv_live_range bits s HI)].
    + constructor; [|apply HI]. intros Hl. now apply (inv_disjoint bits s HI p).
    + intros y [<-|Hy] Hp; [|now apply (inv_disjoint _ _ HI' y)].
      revert Hp. apply drop_removes, HI.
  - injection HS as <- <-.
    apply inv_shrink; auto using incl_refl, incl_drop, NoDup_ids_drop.
  - injection HS as <- <-. apply inv_shrink; auto using incl_refl, NoDup_remove_id.
    intros y Hy%In_remove_id. tauto.
  - destruct (mem x (live s)); injection HS as <- <-; [|exact HI].
    apply inv_shrink; auto using incl_refl.
  - destruct (mem x (opening s)); injection HS as <- <-; [|exact HI].
    apply inv_shrink; auto using incl_refl, NoDup_remove_id.
    intros y Hy%In_remove_id. tauto.
Qed.

Lemma run_inv bits ops : 0 <= bits -> forall s outs s' outs',
  Inv bits s -> run bits true s ops outs = Some (s', outs') -> Inv bits s'.
Proof.
  intros Hb. induction ops as [|o r IH]; intros s outs s' outs' HI HR; cbn [run] in HR.
  - injection HR as <- <-. exact HI.
  - destruct (step bits s o) as [s1 out|] eqn:ES; [|discriminate].
    cbn [andb] in HR. destruct (window_ok bits s1) eqn:EW; cbn [negb] in HR; [|discriminate].
    eapply IH; [|exact HR]. eapply step_inv; eauto.
Qed.

(* with these ops only, nothing is ever pending, so the bound holds *)
Definition local_only (o : op) : bool :=
  match o with LocalOpen | Close _ => true | _ => false end.

Lemma run_local_bounded bits ops : forall s outs,
  pending s = [] -> forallb local_only ops = true ->
  run bits true s ops outs = run bits false s ops outs.
Proof.
  induction ops as [|o r IH]; intros s outs Hp Hl; cbn [run]; [reflexivity|].
  cbn [forallb] in Hl. apply andb_true_iff in Hl as [Ho Hl].
  destruct (step bits s o) as [s1 out|] eqn:ES; [|reflexivity].
  assert (Hp1 : pending s1 = []).
  { destruct o; try discriminate; cbn [step] in ES.
    - destruct (next_channel bits (live s) (counter s)) as [[[y c'] k]|]; [|discriminate].
      injection ES as <- <-. cbn. now rewrite Hp.
    - injection ES as <- <-. exact Hp. }
  assert (HW : window_ok bits s1 = true) by (unfold window_ok; now rewrite Hp1).
  rewrite HW. cbn. now apply IH.
Qed.

Lemma unique bits c0 ops s outs : 0 <= bits -> in_range bits c0 ->
  run bits true (init c0) ops [] = Some (s, outs) ->
  NoDup (live s) /\ NoDup (pend_ids (pending s)) /\
  (forall x, In x (live s) -> ~ In x (pend_ids (pending s))) /\
  (forall x, In x (live s) \/ In x (pend_ids (pending s)) -> 0 <= x < 2 ^ bits) /\
  (forall o s' out, step bits s o = SOk s' out -> window_ok bits s' = true ->
     match o with
     | LocalOpen | PeerReserve =>
         ~ In out (live s) /\ ~ In out (pend_ids (pending s)) /\ 0 <= out < 2 ^ bits
     | PeerRegister p => In p (pend_ids (pending s)) -> ~ In p (live s) /\ NoDup (live s')
     | _ => True
     end).
Proof.
  intros Hb Hc HR. apply run_inv in HR; [|assumption|now apply inv_init].
  split; [apply HR|]. split; [apply HR|].
  split; [intros x Hl Hp; now apply (inv_disjoint bits s HR x)|].
  split; [intros x [Hx|Hx]; [now apply (inv_live_range bits s HR) | now apply (inv_pend_range bits s HR)]|].
  intros o s' out HS HW. destruct o as [| |p|p|x|x|x]; try exact I.
  - exact (alloc_step_fresh bits s true s' out Hb HR HS HW).
  - exact (alloc_step_fresh bits s false s' out Hb HR HS HW).
  - intros Hp. split; [intros Hl; now apply (inv_disjoint bits s HR p)|].
    apply (step_inv bits s _ s' out Hb HR HS HW).
Qed.

(* 0 is the id the peer is reserved when ids have 2 bits and the counter starts at 1 *)
Definition witness_ops : list op :=
  [LocalOpen; LocalOpen; LocalOpen; PeerReserve; LocalOpen; PeerRegister 0].
