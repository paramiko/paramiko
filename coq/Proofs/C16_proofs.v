(* C16 -- lemmas: the failure counter is the number of counted failures on the wire, and a
   counter at the limit means a closed transport.  Both are stated as one relation [counts]
   between a handler's starting state and its result; it holds of what handlers are [built]
   from (Proofs/C14_proofs.v), hence of every step. *)
From PV Require Import Bytes C39 C14 C14_proofs C16.
Open Scope Z_scope.

Lemma counted_app a b : counted_failures (a ++ b) = counted_failures a + counted_failures b.
Proof. unfold counted_failures. rewrite filter_app, app_length. lia. Qed.

Definition counts (st : astate) (r : astate * list out) : Prop :=
  a_fails (fst r) = a_fails st + counted_failures (snd r) /\ (fail_inv st -> fail_inv (fst r)).

Lemma counts_then st r f : counts st r -> counts (fst r) (f (fst r)) -> counts st (then_do r f).
Proof.
  intros [Hr Ir] [Hs Is]. unfold counts.
  rewrite then_do_fst, then_do_snd, counted_app. split; [lia | tauto].
Qed.

Lemma limit_check_counts st :
  let r := limit_check st in
  a_fails (fst r) = a_fails st /\ counted_failures (snd r) = 0 /\ fail_inv (fst r).
Proof.
  unfold limit_check, fail_inv. destruct (Z.leb_spec fail_limit (a_fails st)); cbn; auto.
Qed.

(* the one place where the counter moves: one more for each USERAUTH_FAILURE(partial = false) *)
Lemma counts_send st res : counts st (send_auth_result st res).
Proof.
  unfold send_auth_result, counts.
  destruct res;
    match goal with |- context [limit_check ?s] =>
      destruct (limit_check_counts s) as (Hf & Ho & Hi); destruct (limit_check s) as [s2 o2]
    end;
    cbn [fst snd] in *; rewrite ?counted_app, Ho, Hf; cbn; (split; [lia | auto]).
Qed.

Lemma built_counts sends st r : built sends st r -> counts st r.
Proof.
  induction 1 as [st st' o _ Hf Ha _ Ho | st res _ | st r f _ Hr _ Hf].
  - unfold counts, fail_inv, counted_failures. cbn [fst snd]. rewrite Hf, Ho.
    split; [cbn; lia | tauto].
  - apply counts_send.
  - apply counts_then; assumption.
Qed.

Lemma limit_check_below st : a_fails st < fail_limit -> limit_check st = (st, []).
Proof.
  intros H. unfold limit_check. destruct (Z.leb_spec fail_limit (a_fails st)); [lia | reflexivity].
Qed.

Lemma send_auth_result_open st res :
  a_active st = true -> a_fails st < fail_limit - 1 ->
  a_active (fst (send_auth_result st res)) = true.
Proof.
  intros Ha Hf. unfold send_auth_result.
  destruct res; rewrite limit_check_below by (cbn; lia); exact Ha.
Qed.

Section Handlers.
Variable sig_ok : list Z -> list Z -> list Z -> vres.
Variable sid : list Z.

Lemma step_counts st m e : counts st (auth_step sig_ok sid st m e).
Proof. apply (built_counts (fun _ => True)), auth_step_built; exact I. Qed.

Lemma run_counts steps st : counts st (run sig_ok sid st steps).
Proof.
  revert steps st. apply along_run; [| auto using counts_then | exact step_counts].
  intros st. apply (built_counts (fun _ => True)), built_exit; auto.
Qed.

Lemma auth_step_request st u s b e :
  a_active st = true ->
  auth_step sig_ok sid st (Msg50 u s b) e = h_request sig_ok sid (set_gss st false) e u s b.
Proof.
  intros Ha. unfold auth_step. rewrite Ha. destruct (a_gss st) eqn:Hg; [reflexivity|].
  destruct st. cbn in Hg. subst. reflexivity.
Qed.

Lemma closed_step st m e : a_active st = false -> auth_step sig_ok sid st m e = (st, []).
Proof. intros H. unfold auth_step. rewrite H. reflexivity. Qed.

Lemma closed_run steps st : a_active st = false -> run sig_ok sid st steps = (st, []).
Proof.
  revert steps st.
  apply (along_run sig_ok sid (fun st r => a_active st = false -> r = (st, [])));
    [reflexivity | | exact closed_step].
  intros st r f Hr Hf Ha. rewrite (Hr Ha). unfold then_do. rewrite (Hf st Ha). reflexivity.
Qed.

End Handlers.
