(* C11 - lemmas over Model/C11.v and the generated discipline table Gen/C11_gen.v: how the window flag kf
   and the offenders of a trace behave under append; the invariant Inv of the LTS, parametrised by the
   handlers whose reply path, and the keepalive ticks, that the environment may trigger (all of them:
   reach_inv; none: quiet_ok); a transport thread parked with the flag clear stays parked whatever
   happens; the queued user sends go out once the exchange completes. *)
From Coq Require Import ZArith List Bool Lia.
From PV Require Import Bytes C11_gen C11.
Import ListNotations.
Open Scope Z_scope.

Lemma lookup_in : forall p t x, lookup p t = Some x -> In (p, x) t.
Proof.
  induction t as [|[q y] r IH]; simpl; intros x H; [discriminate|].
  destruct (q =? p) eqn:E.
  - inversion H; subst. apply Z.eqb_eq in E. subst. left. reflexivity.
  - right. auto.
Qed.

Lemma reply_types_ge50 : forall p t, In t (reply_types p) -> 50 <= t.
Proof.
  assert (K : forallb (fun e => forallb (fun t => 50 <=? t) (snd (snd e))) handler_table = true) by reflexivity.
  intros p t H. unfold reply_types in H.
  destruct (lookup p handler_table) as [[d l]|] eqn:E; [|contradiction].
  apply lookup_in in E. rewrite forallb_forall in K. specialize (K _ E). simpl in K.
  rewrite forallb_forall in K. apply Z.leb_le, K, H.
Qed.

Lemma keepalive_types_ge50 : forall t, In t keepalive_types -> 50 <= t.
Proof.
  assert (K : forallb (fun t => 50 <=? t) keepalive_types = true) by reflexivity.
  intros t H. rewrite forallb_forall in K. apply Z.leb_le, K, H.
Qed.

Lemma disc_eqb_noreply : forall d, disc_eqb d NoReply = true -> d = NoReply.
Proof. destruct d; simpl; auto; discriminate. Qed.

Lemma code_locked_false : code_locked = false.
Proof. reflexivity. Qed.

Lemma step_eq : forall s e, step s e = step_gen false true s e.
Proof. intros. unfold step. rewrite code_locked_false. reflexivity. Qed.

Lemma run_app : forall a b s, run s (a ++ b) = run (run s a) b.
Proof. intros. unfold run. apply fold_left_app. Qed.

(* no KEXINIT, no NEWKEYS: what user_ok tests of a user message *)
Definition plain (its : list item) : Prop := Forall (fun it => user_ok (fst it) = true) its.

Lemma ge50_user_ok : forall t, 50 <= t -> user_ok t = true.
Proof.
  intros t H. unfold user_ok.
  destruct (Z.eqb_spec t 20); [lia|]. destruct (Z.eqb_spec t 21); [lia|]. reflexivity.
Qed.

Lemma tagged_plain : forall (o : origin) l,
  (forall t, In t l -> user_ok t = true) -> plain (map (fun t => (t, o)) l).
Proof. intros o l H. apply Forall_map, Forall_forall. exact H. Qed.

Lemma replies_in : forall p it, In it (replies p) -> snd it = OReply p /\ In (fst it) (reply_types p).
Proof.
  intros p it H. unfold replies in H. apply in_map_iff in H. destruct H as [t [E H]]. subst. simpl. auto.
Qed.

Lemma replies_plain : forall p, plain (replies p).
Proof. intros p. apply tagged_plain. intros t H. apply ge50_user_ok, (reply_types_ge50 p), H. Qed.

Lemma keepalive_plain : plain keepalive_msg.
Proof. apply tagged_plain. intros t H. apply ge50_user_ok, keepalive_types_ge50, H. Qed.

Lemma users_plain : forall q, forallb user_ok q = true -> plain (map (fun t => (t, OUser)) q).
Proof. intros q H. apply tagged_plain, forallb_forall, H. Qed.

Lemma kstep_plain : forall k it, user_ok (fst it) = true -> kstep k it = k.
Proof.
  intros k it H. apply negb_true_iff, orb_false_iff in H. destruct H as [H20 H21].
  unfold kstep. rewrite H20, H21. reflexivity.
Qed.

Lemma kf_app : forall a b k, kf k (a ++ b) = kf (kf k a) b.
Proof. induction a as [|x a IH]; simpl; intros; auto. Qed.

Lemma off_app : forall a b k, offenders k (a ++ b) = offenders k a ++ offenders (kf k a) b.
Proof.
  induction a as [|x a IH]; simpl; intros b k; [reflexivity|].
  destruct ((fst x =? 20) || (fst x =? 21)) eqn:E.
  - apply IH.
  - rewrite (kstep_plain k x) by (apply negb_true_iff, E).
    destruct (k && (50 <=? fst x)); simpl; rewrite IH; reflexivity.
Qed.

Lemma kf_plain : forall its k, plain its -> kf k its = k.
Proof.
  intros its k P. induction P as [|x l Hx _ IH]; simpl; [reflexivity|].
  rewrite (kstep_plain k x Hx). exact IH.
Qed.

Lemma off_plain_false : forall its, plain its -> offenders false its = [].
Proof.
  intros its P. induction P as [|x l Hx _ IH]; simpl; [reflexivity|].
  apply negb_true_iff in Hx. rewrite Hx. exact IH.
Qed.

Lemma off_sub : forall its k it, In it (offenders k its) -> In it its /\ 50 <= fst it.
Proof.
  induction its as [|x l IH]; simpl; intros k it H; [contradiction|].
  assert (R : forall k', In it (offenders k' l) -> (x = it \/ In it l) /\ 50 <= fst it).
  { intros k' H'. destruct (IH _ _ H'). auto. }
  destruct ((fst x =? 20) || (fst x =? 21)); [exact (R _ H)|].
  destruct (k && (50 <=? fst x)) eqn:E; [|exact (R _ H)].
  destruct H as [<-|H]; [|exact (R _ H)].
  apply andb_prop in E. destruct E as [_ E]. apply Z.leb_le in E. auto.
Qed.

Lemma kexpart_closes : forall p,
  offenders (phase_kex p) (kexpart p) = [] /\ kf (phase_kex p) (kexpart p) = false.
Proof. destruct p; split; reflexivity. Qed.

Section Invariant.
  Variable A : Z -> Prop.      (* inbound types whose reply path may be taken *)
  Variable AK : Prop.          (* keepalive ticks may happen *)

  Definition good_off (it : item) : Prop :=
    exists p, A p /\ snd it = OReply p /\ disc_of p = Ungated /\ In (fst it) (reply_types p).
  Definition blocked_ok (its : list item) : Prop :=
    (exists p, A p /\ disc_of p = Gated /\ its = replies p) \/
    (AK /\ keepalive_disc = Gated /\ its = keepalive_msg).

  Record Inv (s : st) : Prop := mkInv {
    i_kf : kf false (out s) = phase_kex (ph s);
    i_cts : cts s = is_idle (ph s);
    i_off : forall it, In it (offenders false (out s)) -> good_off it;
    i_uq : forallb user_ok (uq s) = true;
    i_ttw : forall its, ttw s = Some its -> cts s = false /\ blocked_ok its;
    i_dead : dead s = true -> ttw s <> None;
    i_lk : lk s = false;
    i_ttl : ttl s = false;
    i_pend : pend s = false }.

  Definition ev_ok (e : ev) : Prop :=
    match e with
    | Recv p w => w = true -> disc_of p <> NoReply -> A p
    | KeepTick => AK
    | _ => True
    end.

  Lemma inv_init : forall keep, Inv (init_st keep).
  Proof.
    intros keep. constructor; simpl; auto; try discriminate. intros it H; contradiction.
  Qed.

  Lemma idle_kf_false : forall s, Inv s -> cts s = true -> kf false (out s) = false.
  Proof.
    intros s I C. rewrite (i_kf s I). rewrite (i_cts s I) in C. destruct (ph s); simpl in *; auto; discriminate.
  Qed.

  (* In the proofs below [constructor; simpl; auto] leaves the fields the operation touches. *)
  Lemma inv_emit : forall s its, Inv s -> plain its ->
    (cts s = true \/ forall it, In it its -> good_off it) -> Inv (emit s its).
  Proof.
    intros s its I P H. pose proof (idle_kf_false s I) as KF. destruct I as [K C O U W D L TL PD].
    constructor; simpl; auto.
    - rewrite kf_app, (kf_plain its _ P). exact K.
    - intros it Hin. rewrite off_app in Hin. apply in_app_or in Hin.
      destruct Hin as [Hin|Hin]; [exact (O it Hin)|]. destruct H as [Ct|G].
      + rewrite (KF Ct), (off_plain_false its P) in Hin. contradiction.
      + apply off_sub in Hin. apply G, Hin.
  Qed.

  Lemma inv_set_lk : forall s l, Inv s -> l = false -> Inv (set_lk s l).
  Proof. intros s l I H. destruct I. constructor; simpl; auto. Qed.

  Lemma inv_set_uq : forall s q, Inv s -> forallb user_ok q = true -> Inv (set_uq s q).
  Proof. intros s q I H. destruct I. constructor; simpl; auto. Qed.

  Lemma inv_set_need : forall s n, Inv s -> Inv (set_need s n).
  Proof. intros s n I. destruct I. constructor; simpl; auto. Qed.

  Lemma inv_kill : forall s its, Inv s -> ttw s = Some its -> Inv (kill s).
  Proof. intros s its I H. destruct I. constructor; simpl; auto. intros _. rewrite H. discriminate. Qed.

  Lemma inv_block : forall s its, Inv s -> cts s = false -> blocked_ok its -> Inv (block s its).
  Proof.
    intros s its I C B. destruct I. constructor; simpl; auto.
    - intros its' E. inversion E; subst. auto.
    - intros _. discriminate.
  Qed.

  Lemma inv_phase : forall s P its, Inv s -> ttw s = None ->
    kf (phase_kex (ph s)) its = phase_kex P ->
    offenders (phase_kex (ph s)) its = [] ->
    Inv (emit (set_phase s P (is_idle P)) its).
  Proof.
    intros s P its I T KP OP. destruct I as [K C O U W D L TL PD]. constructor; simpl; auto.
    - rewrite kf_app, K. exact KP.
    - intros it Hin. rewrite off_app, K, OP, app_nil_r in Hin. exact (O it Hin).
    - rewrite T. discriminate.
  Qed.

  Lemma free_none : forall s, tt_free s = true -> ttw s = None.
  Proof. intros s H. unfold tt_free in H. destruct (ttw s); [discriminate|reflexivity]. Qed.

  Lemma idle_free : forall s, Inv s -> is_idle (ph s) = true -> ttw s = None.
  Proof.
    intros s I H. destruct (ttw s) as [its|] eqn:T; [|reflexivity].
    destruct (i_ttw s I its T) as [C _]. rewrite (i_cts s I), H in C. discriminate.
  Qed.

  Lemma inv_kexinit : forall s, Inv s -> is_idle (ph s) = true -> Inv (kexinit s).
  Proof.
    intros s I H. unfold kexinit.
    apply (inv_phase s SentKexinit [(20, OKex)] I (idle_free s I H)).
    - destruct (ph s); try discriminate. reflexivity.
    - reflexivity.
  Qed.

  Lemma inv_gate_tt : forall s its, Inv s -> plain its -> blocked_ok its -> Inv (gate_tt s its).
  Proof.
    intros s its I P B. unfold gate_tt. destruct (cts s) eqn:C.
    - apply inv_emit; auto.
    - apply inv_block; auto.
  Qed.

  Lemma inv_recv : forall s p w, Inv s -> ttw s = None -> ev_ok (Recv p w) -> Inv (recv true s p w).
  Proof.
    intros s p w I T OK. unfold recv.
    destruct (p =? 20).
    { destruct (ph s) eqn:E; try exact I.
      - apply (inv_phase s InKex [(20, OKex); (30, OKex)] I T); rewrite E; reflexivity.
      - apply (inv_phase s InKex [(30, OKex)] I T); rewrite E; reflexivity. }
    destruct ((30 <=? p) && (p <=? 49)).
    { destruct (ph s) eqn:E; try exact I.
      apply (inv_phase s SentNewkeys [(21, OKex)] I T); rewrite E; reflexivity. }
    destruct (p =? 21).
    { destruct (ph s) eqn:E; try exact I.
      apply inv_set_need. destruct I as [K C O U W D L TL PD]. rewrite E in K.
      constructor; simpl; auto. rewrite T. discriminate. }
    rewrite (i_lk s I), andb_false_r.
    destruct w; [|exact I].
    simpl in OK. destruct (disc_of p) eqn:D; [exact I| |].
    - apply inv_emit; auto using replies_plain. right. intros it Hin.
      apply replies_in in Hin. destruct Hin as [O Hin]. exists p. repeat split; auto.
      apply OK; [reflexivity|discriminate].
    - apply inv_gate_tt; auto using replies_plain. left. exists p. repeat split; auto.
      apply OK; [reflexivity|discriminate].
  Qed.

  (* _send_user_message from a user thread that holds no lock *)
  Lemma inv_user_send : forall s t, Inv s -> user_ok t = true ->
    Inv (if cts s then emit s [(t, OUser)] else set_uq s (uq s ++ [t])).
  Proof.
    intros s t I U. destruct (cts s) eqn:C.
    - apply inv_emit; auto. apply Forall_cons; [exact U|apply Forall_nil].
    - apply inv_set_uq; auto. rewrite forallb_app, (i_uq s I). simpl. rewrite U. reflexivity.
  Qed.

  Lemma inv_step : forall s e, Inv s -> ev_ok e -> Inv (step_gen false true s e).
  Proof.
    intros s e I OK. unfold step_gen. destruct (dead s); [exact I|].
    destruct e.
    - destruct (user_ok t) eqn:U; [|exact I]. apply inv_user_send; auto.
    - destruct (user_ok t) eqn:U; [|exact I]. apply inv_user_send; auto.
    - destruct (uq s) as [|t r] eqn:Q; [exact I|]. destruct (cts s) eqn:C; [|exact I].
      pose proof (i_uq s I) as U. rewrite Q in U. simpl in U. apply andb_prop in U. destruct U as [U1 U2].
      apply inv_emit.
      + apply inv_set_lk; [apply inv_set_uq; auto|]. simpl. rewrite (i_lk s I). reflexivity.
      + apply Forall_cons; [exact U1|apply Forall_nil].
      + left. exact C.
    - destruct (is_idle (ph s)) eqn:H; [|exact I]. apply inv_kexinit; auto.
    - apply inv_set_need. exact I.
    - destruct (tt_free s) eqn:F; [|exact I].
      destruct (need s && is_idle (ph s)) eqn:H; [|exact I].
      apply andb_prop in H. destruct H as [_ H]. apply inv_kexinit; auto.
    - destruct (tt_free s) eqn:F; [|exact I]. apply inv_recv; auto using free_none.
    - destruct (tt_free s) eqn:F; [|exact I].
      destruct (ka s && negb (keepalive_need_guard && need s)); [|exact I].
      (* an Ungated keepalive would be an offender that is no handler's reply *)
      change keepalive_disc with Gated.
      apply inv_gate_tt; auto using keepalive_plain. right. auto.
    - rewrite (i_pend s I). exact I.
    - destruct (ttw s) as [its|] eqn:T; [|exact I]. apply (inv_kill s its); auto.
  Qed.

  Lemma inv_run : forall evs s, Inv s -> Forall ev_ok evs -> Inv (run s evs).
  Proof.
    induction evs as [|e r IH]; simpl; intros s I F; [exact I|].
    inversion F; subst. apply IH; auto. rewrite step_eq. apply inv_step; auto.
  Qed.
End Invariant.

Lemma reach_inv : forall keep evs, Inv (fun _ => True) True (run (init_st keep) evs).
Proof.
  intros keep evs. apply inv_run; [apply inv_init|]. apply Forall_forall. intros e _. destruct e; simpl; auto.
Qed.

Lemma quiet_ok : forall evs, forallb quiet evs = true -> Forall (ev_ok (fun _ => False) False) evs.
Proof.
  intros evs H. apply Forall_forall. intros e He. rewrite forallb_forall in H. specialize (H e He).
  destruct e; simpl in *; auto; try discriminate.
  intros W D. subst. simpl in H. apply disc_eqb_noreply in H. contradiction.
Qed.

(* the transport thread waits (at the gate or behind the lock) with the flag clear and an exchange open;
   which variant of the step function runs does not matter *)
Definition parked (s : st) : Prop :=
  tt_free s = false /\ pend s = false /\ cts s = false /\ is_idle (ph s) = false.

Definition tt_view (s : st) := (out s, cts s, ph s, ttw s, ttl s, pend s).

Lemma parked_view : forall s s', tt_view s' = tt_view s -> parked s -> parked s'.
Proof. unfold tt_view, parked, tt_free. intros s s' E. injection E as _ -> -> -> -> ->. auto. Qed.

Lemma parked_step : forall b n s e, parked s -> tt_view (step_gen b n s e) = tt_view s.
Proof.
  intros b n s e (F & PD & C & NI). unfold step_gen. destruct (dead s); [reflexivity|].
  destruct e; rewrite ?F, ?C, ?NI, ?PD; try reflexivity.
  - destruct (user_ok t); reflexivity.
  - destruct (user_ok t); [destruct b|]; reflexivity.
  - destruct (uq s); reflexivity.
  - destruct (ttw s); reflexivity.
Qed.

Lemma parked_run : forall b n evs s, parked s -> tt_view (run_gen b n s evs) = tt_view s.
Proof.
  induction evs as [|e r IH]; simpl; intros s P; [reflexivity|].
  pose proof (parked_step b n s e P) as E. rewrite (IH _ (parked_view _ _ E P)). exact E.
Qed.

Lemma blocked_stays : forall A AK s its evs, Inv A AK s -> ttw s = Some its ->
  out (run s evs) = out s /\ cts (run s evs) = false /\ ttw (run s evs) = Some its.
Proof.
  intros A AK s its evs I T. destruct (i_ttw _ _ s I its T) as [C _].
  assert (P : parked s).
  { unfold parked, tt_free. rewrite T, (i_pend _ _ s I), <- (i_cts _ _ s I). auto. }
  pose proof (parked_run code_locked true evs s P) as E.
  change (run_gen code_locked true s evs) with (run s evs) in E.
  injection E as EO EC _ ET _ _. rewrite EO, EC, ET. auto.
Qed.

Lemma drain : forall q ph0 n k o,
  fold_left step (repeat UserWake (length q)) (mkst ph0 true n k None q false o false false false) =
  mkst ph0 true n k None [] false (o ++ map (fun t => (t, OUser)) q) false false false.
Proof.
  induction q as [|t r IH]; intros ph0 n k o; simpl.
  - rewrite app_nil_r. reflexivity.
  - rewrite step_eq. unfold step_gen. simpl. unfold emit, set_lk, set_uq. simpl. rewrite IH. rewrite <- app_assoc. reflexivity.
Qed.

Lemma complete_run : forall p n k q o,
  fold_left step (complete p) (mkst p (is_idle p) n k None q false o false false false) =
  mkst Idle true (match p with Idle => n | _ => false end) k None q false (o ++ kexpart p) false false false.
Proof.
  destruct p; intros; unfold kexpart; rewrite ?app_nil_r; try reflexivity.
  change [(30, OKex); (21, OKex)] with ([(30, OKex)] ++ [(21, OKex)]). rewrite app_assoc. reflexivity.
Qed.

(* a dead transport has its thread at the gate (i_dead), so ttw s = None also says the session is up *)
Lemma delivered : forall A AK s, Inv A AK s -> ttw s = None ->
  let s' := run s (complete (ph s) ++ repeat UserWake (length (uq s))) in
  ph s' = Idle /\ cts s' = true /\ uq s' = [] /\
  out s' = out s ++ kexpart (ph s) ++ map (fun t => (t, OUser)) (uq s) /\
  offenders false (out s') = offenders false (out s).
Proof.
  intros A AK s [K C _ U _ D L TL PD] T. apply users_plain in U.
  destruct (dead s) eqn:Dd; [destruct (D eq_refl T)|]. clear D.
  destruct s as [p c n k t q d o l tl pd]. simpl in *. subst.
  rewrite run_app. unfold run. rewrite complete_run, drain. simpl.
  rewrite <- app_assoc. repeat split; auto.
  destruct (kexpart_closes p) as [OK KK].
  rewrite !off_app, K, OK, KK, (off_plain_false _ U), app_nil_r. reflexivity.
Qed.

(* the handler types the property statements sweep over *)
Definition gated_witnesses : list Z := [95; 97; 98; 100].

Definition quiet_types : list Z := [81; 82; 91; 92; 93; 94; 96; 99].
