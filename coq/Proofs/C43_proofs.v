(* C43 -- lemmas about the model in Model/C43.v.  Both scans of get_modulus are folds that keep the
   best candidate met so far (best, best_snoc); the size served is characterised over the sorted
   list (choose_size_cases) and then over the pack's sizes in any order (get_modulus_size_spec).
   read_file is a fold that only ever adds, so what the pack holds is what some line contributed. *)
From Coq Require Import ZArith List Bool Lia.
From PV Require Import Bytes ListFacts C43_gen C43.
Import ListNotations.
Open Scope Z_scope.

Lemma In_insert a x l : In a (insert x l) <-> a = x \/ In a l.
Proof.
  induction l as [|y r IH]; cbn [insert].
  - cbn. split; [intros [<-|[]] | intros [->|[]]]; now left.
  - destruct (x <=? y); cbn [In]; [split; intros [H|H]; auto|].
    rewrite IH. split; intros [H|[H|H]]; auto.
Qed.

Lemma In_sort a l : In a (sort l) <-> In a l.
Proof.
  induction l as [|x r IH]; cbn; [tauto|]. rewrite In_insert, IH. split; intros [H|H]; auto.
Qed.

Inductive sorted : list Z -> Prop :=
  | s_nil : sorted []
  | s_cons x l : sorted l -> (forall y, In y l -> x <= y) -> sorted (x :: l).

Lemma insert_sorted x l : sorted l -> sorted (insert x l).
Proof.
  induction 1 as [|y l Hs IH Hy]; cbn.
  - constructor; [constructor | intros ? []].
  - destruct (x <=? y) eqn:E.
    + constructor.
      * constructor; auto.
      * intros z [<-|Hz]; [lia | specialize (Hy z Hz); lia].
    + constructor; auto. intros z Hz. apply In_insert in Hz as [->|Hz]; [lia | auto].
Qed.

Lemma sort_sorted l : sorted (sort l).
Proof. induction l as [|x r IH]; cbn; [constructor | now apply insert_sorted]. Qed.

(* what get_modulus's last resort relies on: bitsizes[0] is the least size, bitsizes[-1] the greatest *)
Lemma sorted_ends l :
  sorted l -> l <> [] ->
  In (hd 0 l) l /\ In (last l 0) l /\ forall y, In y l -> hd 0 l <= y <= last l 0.
Proof.
  induction 1 as [|x l Hs IH Hx]; [congruence|]. intros _. destruct l as [|z t].
  - cbn. split; [|split]; [now left | now left | intros y [<-|[]]; lia].
  - destruct IH as (_ & IL & IB); [discriminate|].
    change (last (x :: z :: t) 0) with (last (z :: t) 0). cbn [hd].
    split; [now left|]. split; [now right|].
    intros y [<-|Hy]; [specialize (Hx _ IL) | specialize (Hx y Hy); specialize (IB y Hy)]; lia.
Qed.

(* Both loops keep the best candidate met so far, -1 standing for "none yet": g is the
   le-least element of l that satisfies P, or -1 when l has none. *)
Definition best (P : Z -> Prop) (le : Z -> Z -> Prop) (l : list Z) (g : Z) : Prop :=
  (g = -1 /\ forall b, In b l -> ~ P b) \/
  (g <> -1 /\ In g l /\ P g /\ forall b, In b l -> P b -> le g b).

(* one turn of such a loop; c is the test under which b replaces g *)
Lemma best_snoc P (le : Z -> Z -> Prop) l g b (c : bool) :
  (forall x y z, le x y -> le y z -> le x z) -> le b b -> b <> -1 ->
  (c = true -> P b /\ (g = -1 \/ le b g)) ->
  (c = false -> P b -> g <> -1 /\ le g b) ->
  best P le l g -> best P le (l ++ [b]) (if c then b else g).
Proof.
  intros Htrans Hrefl Hb Ht Hf Hg. destruct c.
  - destruct (Ht eq_refl) as [HP Hbg]. right.
    split; [exact Hb|]. split; [apply in_or_app; right; now left|]. split; [exact HP|].
    intros x Hx HPx. apply in_app_or in Hx as [Hx|[<-|[]]]; [|exact Hrefl].
    destruct Hg as [[-> Hno]|(Hg1 & _ & _ & Hmin)]; [destruct (Hno x Hx HPx)|].
    destruct Hbg as [->|Hbg]; [contradiction|]. exact (Htrans _ _ _ Hbg (Hmin x Hx HPx)).
  - specialize (Hf eq_refl). destruct Hg as [[-> Hno]|(Hg1 & Hin & HPg & Hmin)]; [left|right].
    + split; [reflexivity|]. intros x Hx HPx.
      apply in_app_or in Hx as [Hx|[<-|[]]]; [exact (Hno x Hx HPx)|]. now destruct (Hf HPx).
    + split; [exact Hg1|]. split; [apply in_or_app; now left|]. split; [exact HPg|].
      intros x Hx HPx. apply in_app_or in Hx as [Hx|[<-|[]]]; [exact (Hmin x Hx HPx) | apply Hf, HPx].
Qed.

(* what the first scan looks for (hm: it also tests b >= min), and the second *)
Definition scan1_ok (hm : bool) (mn prefer mx b : Z) : Prop :=
  prefer <= b /\ (hm = true -> mn <= b) /\ b <= mx.
Definition in_range (mn mx b : Z) : Prop := mn <= b <= mx.

Lemma scan1_spec hm mn prefer mx l :
  (forall b, In b l -> 0 <= b) -> best (scan1_ok hm mn prefer mx) Z.le l (scan1 hm mn prefer mx l).
Proof.
  intros Hpos. unfold scan1. apply fold_left_snoc_inv.
  - left. split; [reflexivity | intros b []].
  - intros l' g b Hb Hg. specialize (Hpos b Hb). unfold scan1_step, scan1_ok.
    apply best_snoc; [intros x y z; lia | lia | lia | destruct hm; lia | destruct hm; lia | exact Hg].
Qed.

Lemma scan2_spec mn mx l :
  (forall b, In b l -> 0 <= b) -> best (in_range mn mx) Z.ge l (scan2 mn mx l (-1)).
Proof.
  intros Hpos. unfold scan2. apply fold_left_snoc_inv.
  - left. split; [reflexivity | intros b []].
  - intros l' g b Hb Hg. specialize (Hpos b Hb). unfold scan2_step, in_range.
    apply best_snoc; [intros x y z; lia | lia | lia | lia | lia | exact Hg].
Qed.

Lemma eqb_m1 x : (x =? -1) = true <-> x = -1.
Proof. apply Z.eqb_eq. Qed.

(* the three ways get_modulus arrives at a size g among the sizes l: the first scan's least hit, else
   the greatest size in range, else the least size of all unless that is below min, in which case
   the greatest *)
Definition serves (hm : bool) (mn prefer mx : Z) (l : list Z) (g : Z) : Prop :=
  In g l /\
  ((scan1_ok hm mn prefer mx g /\ forall s, In s l -> scan1_ok hm mn prefer mx s -> g <= s) \/
   ((forall s, In s l -> ~ scan1_ok hm mn prefer mx s) /\
    ((in_range mn mx g /\ forall s, In s l -> in_range mn mx s -> s <= g) \/
     ((forall s, In s l -> ~ in_range mn mx s) /\
      ((mn <= g /\ forall s, In s l -> g <= s) \/
       ((exists s, In s l /\ s < mn) /\ forall s, In s l -> s <= g)))))).

Lemma choose_size_cases hm l mn prefer mx :
  (forall b, In b l -> 0 <= b) -> sorted l -> (exists b, In b l) ->
  serves hm mn prefer mx l (choose_size hm l mn prefer mx).
Proof.
  intros Hpos Hs Hne. unfold serves, choose_size. cbv zeta.
  destruct (scan1_spec hm mn prefer mx l Hpos) as [[E1 No1]|(N1 & In1 & Ok1 & Min1)].
  - rewrite E1, Z.eqb_refl.
    destruct (scan2_spec mn mx l Hpos) as [[E2 No2]|(N2 & In2 & Ok2 & Max2)].
    + rewrite E2, Z.eqb_refl.
      destruct (sorted_ends l Hs) as (Hhd & Hlast & Hends); [intros ->; now destruct Hne|].
      destruct (Z.ltb_spec (hd 0 l) mn) as [Hlt|Hge].
      * split; [exact Hlast|]. right. split; [exact No1|]. right. split; [exact No2|]. right.
        split; [eauto | intros s Hin; apply Hends, Hin].
      * split; [exact Hhd|]. right. split; [exact No1|]. right. split; [exact No2|]. left.
        split; [exact Hge | intros s Hin; apply Hends, Hin].
    + rewrite (proj2 (Z.eqb_neq _ _) N2). split; [exact In2|]. right. split; [exact No1|]. left.
      split; [exact Ok2|]. intros b Hb Rb. specialize (Max2 b Hb Rb). lia.
  - rewrite !(proj2 (Z.eqb_neq _ _) N1). auto.
Qed.

(* sorting changes no membership *)
Theorem get_modulus_size_spec hm sizes mn prefer mx :
  (forall s, In s sizes -> 0 <= s) -> sizes <> [] ->
  serves hm mn prefer mx sizes (get_modulus_size_gen hm sizes mn prefer mx).
Proof.
  intros Hpos Hne. pose proof (choose_size_cases hm (sort sizes) mn prefer mx) as C.
  unfold serves in *. setoid_rewrite In_sort in C.
  apply C; [exact Hpos | apply sort_sorted |]. destruct sizes as [|x r]; [congruence|]. exists x. now left.
Qed.

(* with min <= preferred the extra test of the repaired first scan changes nothing *)
Lemma get_modulus_size_v0_agrees sizes mn prefer mx :
  mn <= prefer -> get_modulus_size_v0 sizes mn prefer mx = get_modulus_size sizes mn prefer mx.
Proof.
  intros H. unfold get_modulus_size_v0, get_modulus_size, get_modulus_size_gen, choose_size.
  assert (E : scan1 false mn prefer mx (sort sizes) = scan1 true mn prefer mx (sort sizes)).
  { unfold scan1. generalize (-1).
    induction (sort sizes) as [|x t IH]; intros g; cbn [fold_left]; [reflexivity|].
    rewrite IH. f_equal. unfold scan1_step. cbn [negb orb].
    destruct (prefer <=? x) eqn:E1; [|reflexivity]. now replace (mn <=? x) with true by lia. }
  now rewrite E.
Qed.

Lemma bit_length_nonneg n : 0 <= bit_length n.
Proof. unfold bit_length. destruct (n =? 0); [lia|]. pose proof (Z.log2_nonneg (Z.abs n)). lia. Qed.

Lemma pack_get_add p k e k' :
  pack_get (pack_add p k e) k' = if k =? k' then pack_get p k' ++ [e] else pack_get p k'.
Proof.
  induction p as [|[k0 es] r IH]; cbn [pack_add pack_get].
  - destruct (k =? k'); reflexivity.
  - destruct (Z.eqb_spec k0 k) as [->|E0]; cbn [pack_get]; [destruct (k =? k'); reflexivity|].
    rewrite IH. destruct (Z.eqb_spec k0 k') as [->|E1]; [|reflexivity].
    destruct (Z.eqb_spec k k'); [congruence | reflexivity].
Qed.

Lemma pack_sizes_add p k e k' :
  In k' (pack_sizes (pack_add p k e)) <-> In k' (pack_sizes p) \/ k' = k.
Proof.
  unfold pack_sizes. induction p as [|[k0 es] r IH]; cbn [pack_add map fst In].
  - split; [intros [<-|[]]; now right | intros [[]| ->]; now left].
  - destruct (Z.eqb_spec k0 k) as [E0|E0]; cbn [map fst In].
    + subst k0. split; [auto | intros [H| ->]; [exact H | now left]].
    + rewrite IH. split; [intros [H|[H|H]] | intros [[H|H]|H]]; auto.
Qed.

Lemma read_step_get p l k e :
  In e (pack_get (read_step p l) k) <-> In e (pack_get p k) \/ parse_modulus l = Some (k, e).
Proof.
  unfold read_step. destruct (parse_modulus l) as [[bl e0]|]; [rewrite pack_get_add|].
  - destruct (Z.eqb_spec bl k) as [->|N]; [rewrite in_app_iff; cbn [In]|]; intuition congruence.
  - intuition congruence.
Qed.

Lemma read_step_sizes p l k :
  In k (pack_sizes (read_step p l)) <-> In k (pack_sizes p) \/ exists e, parse_modulus l = Some (k, e).
Proof.
  unfold read_step. destruct (parse_modulus l) as [[bl e0]|]; [rewrite pack_sizes_add|].
  - split; [intros [H| ->]; eauto | intros [H|[e [= -> _]]]; auto].
  - split; [auto | intros [H|[e [=]]]; exact H].
Qed.

Lemma read_file_entries ls k e :
  In e (pack_get (read_file ls) k) <-> exists l, In l ls /\ parse_modulus l = Some (k, e).
Proof.
  unfold read_file.
  rewrite (fold_left_collect read_step (fun p => In e (pack_get p k))
             (fun l => parse_modulus l = Some (k, e)) (fun p l => read_step_get p l k e)).
  cbn. tauto.
Qed.

Lemma read_file_sizes ls k :
  In k (pack_sizes (read_file ls)) <-> exists l e, In l ls /\ parse_modulus l = Some (k, e).
Proof.
  unfold read_file.
  rewrite (fold_left_collect read_step (fun p => In k (pack_sizes p))
             (fun l => exists e, parse_modulus l = Some (k, e)) (fun p l => read_step_sizes p l k)).
  cbn. split; [intros [[]|(l & Hl & e & H)] | intros (l & e & Hl & H); right]; eauto.
Qed.

Lemma parse_modulus_accepts l bl g m :
  parse_modulus l = Some (bl, (g, m)) ->
  exists mod_type tests tries size generator,
    l = Line mod_type tests tries size generator m /\
    2 <= mod_type /\ 4 <= tests /\
    ~ (Z.land tests 4 <> 0 /\ tests < 8 /\ tries < 100) /\
    bl = bit_length m /\ (bl = size \/ bl = size + 1) /\
    g = (if generator =? 0 then 2 else generator).
Proof.
  destruct l as [|mod_type tests tries size generator modulus]; cbn; [discriminate|].
  destruct (weak mod_type tests tries) eqn:Ew; [discriminate|].
  destruct (wrong_length size (bit_length modulus)) eqn:El; [discriminate|].
  intros H. injection H as <- <- <-.
  exists mod_type, tests, tries, size, generator.
  unfold weak, wrong_length, min_type, min_tests, mr_bit, mr_tests_below, mr_min_tries, len_slack,
    default_generator in *.
  repeat split; try lia.
Qed.

Lemma pack_sizes_nonneg ls s : In s (pack_sizes (read_file ls)) -> 0 <= s.
Proof.
  intros H. apply read_file_sizes in H as (l & [g m] & _ & Hp).
  apply parse_modulus_accepts in Hp as (? & ? & ? & ? & ? & _ & _ & _ & _ & -> & _).
  apply bit_length_nonneg.
Qed.

Lemma get_modulus_entry hm p mn prefer mx r e :
  get_modulus_gen hm p mn prefer mx r = Ok e ->
  In e (pack_get p (get_modulus_size_gen hm (pack_sizes p) mn prefer mx)).
Proof.
  unfold get_modulus_gen. destruct (pack_sizes p) eqn:Es; [discriminate|]. rewrite <- Es.
  destruct (nth_error _ _) eqn:En; [|discriminate].
  intros H. injection H as <-. eapply nth_error_In, En.
Qed.

(* r mod len is a valid index *)
Lemma get_modulus_offers hm p mn prefer mx r :
  pack_get p (get_modulus_size_gen hm (pack_sizes p) mn prefer mx) <> [] ->
  exists e, get_modulus_gen hm p mn prefer mx r = Ok e.
Proof.
  unfold get_modulus_gen.
  destruct (pack_sizes p) eqn:Es; [destruct p; [intros []; reflexivity|discriminate Es]|]. rewrite <- Es.
  set (es := pack_get p _). intros Hne.
  destruct (nth_error es (Z.to_nat (r mod Z.of_nat (length es)))) eqn:En; [eauto|].
  exfalso. apply nth_error_None in En.
  assert (0 < Z.of_nat (length es)) by (destruct es; [congruence | cbn [length]; lia]).
  pose proof (Z.mod_pos_bound r (Z.of_nat (length es)) ltac:(lia)). lia.
Qed.

(* KexGex clamps the preferred size into the server's limits, then stretches the client's range
   to contain it *)
Lemma normalise_request_eq smin smax mn prefer mx :
  normalise_request smin smax mn prefer mx =
  let p := Z.max (Z.min smax prefer) smin in (Z.min p mn, p, Z.max mx p).
Proof. unfold normalise_request, clamp_pref. now rewrite !if_ltb_min, !if_ltb_max. Qed.
