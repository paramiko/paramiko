(* C27 — proofs.  An SFTPFile refines the reference file semantics (Lib/FileSpec.v) on every
   program that shows none of the known-finding shapes.  The server handle is a prefix reader in
   the sense of the generic section of C42_proofs, which gives the value of every read call;
   `view` maps an SFTPFile to the reference file it stands for (the server's content with the
   pending write buffer applied), and one call of the model is one call of the reference on the
   view.  Last come the definitions in which Props states the known divergences ([diverges], with
   the tactic [witness] that evaluates one, and [shape_of]) and the open-mode table ([open_row_ok]). *)
From PV Require Import Bytes C42 C42_gen C42_proofs FileSpec C27 C27_gen.
From Coq Require Import Lia.
Open Scope Z_scope.

(* the reference's readlines() gives itself more fuel than it needs *)
Lemma lines_of_fuel : forall k k' l, (length l < k)%nat -> (length l < k')%nat ->
  lines_of k l = lines_of k' l.
Proof.
  induction k as [|k IH]; intros k' l H1 H2; [lia|]. destruct k' as [|k']; [lia|].
  cbn [lines_of]. destruct (is_nil l) eqn:En; [reflexivity|]. apply is_nil_false in En.
  f_equal. pose proof (zlen_pos _ (upto_lf_nonempty l En)). pose proof (zlen_pos _ En).
  pose proof (zlen_drop (zlen (upto_lf l)) l ltac:(lia)). apply IH; unfold zlen in *; lia.
Qed.

(* The server handle as a prefix reader, the contract of the generic section of C42_proofs:
   sRem s rp is what a reader at offset rp has still to receive; the invariant fixes the content
   and asks that the __tell cache, when set, be the served file's position. *)
Definition srv_ok (s : srv) : Prop :=
  match s_tell s with Some t => t = s_fpos s | None => True end.
Definition sRem (s : srv) (rp : Z) : list Z := drop rp (s_content s).
Definition sInv (c : list Z) (s : srv) (rp : Z) : Prop := s_content s = c /\ 0 <= rp /\ srv_ok s.

(* with a truthful __tell cache, the handle seeks to the requested offset *)
Lemma srv_ok_seek s rp : srv_ok s ->
  (if rp =? match s_tell s with Some t => t | None => s_fpos s end then s_fpos s else rp) = rp.
Proof.
  unfold srv_ok. destruct (s_tell s) as [t|]; [intros ->|intros _];
    destruct (Z.eqb_spec rp (s_fpos s)); congruence.
Qed.

Lemma s_read_spec c : forall s rp n d s',
  sInv c s rp -> 0 < n -> s_read s rp n = (d, s') ->
  sRem s rp = d ++ sRem s' (rp + zlen d) /\ zlen d <= n /\ (d = [] -> sRem s rp = []) /\
  sInv c s' (rp + zlen d).
Proof.
  intros s rp n d s' (Hc & Hrp & Hok) Hn E. unfold s_read in E. rewrite (srv_ok_seek s rp Hok) in E.
  set (k := Z.min n MAX_REQUEST_SIZE) in *.
  assert (Hk : 1 <= k <= n) by (unfold k, MAX_REQUEST_SIZE; lia).
  injection E as <- <-. unfold sRem, sInv, srv_ok. cbn.
  set (X := drop rp (s_content s)). pose proof (zlen_nonneg (take k X)).
  destruct (take_chunk k X (proj1 Hk)) as (H1 & H2 & H3).
  rewrite <- drop_drop by lia. fold X.
  split; [exact H1|]. split; [lia|]. split; [exact H3|]. split; [exact Hc|]. split; [lia|reflexivity].
Qed.

Local Arguments zlen : simpl never.
Local Arguments take : simpl never.
Local Arguments drop : simpl never.
Local Arguments put : simpl never.
Local Arguments zeros : simpl never.

Lemma zlen_zeros n : zlen (zeros n) = Z.max 0 n.
Proof. unfold zeros, zlen. rewrite repeat_length. lia. Qed.
Lemma zeros_nonpos n : n <= 0 -> zeros n = [].
Proof. intros. unfold zeros. replace (Z.to_nat n) with O by lia. reflexivity. Qed.

Lemma put_nil c off : put c off [] = c.
Proof. reflexivity. Qed.
Lemma put_cons c off d : d <> [] ->
  put c off d = take off c ++ zeros (off - zlen c) ++ d ++ drop (off + zlen d) c.
Proof. intros H. unfold put. destruct d; [congruence|reflexivity]. Qed.
Lemma put_end c d : put c (zlen c) d = c ++ d.
Proof.
  destruct d as [|x d]; [now rewrite app_nil_r|].
  rewrite put_cons by discriminate. rewrite take_all by lia. rewrite zeros_nonpos by lia.
  rewrite drop_all by (pose proof (zlen_nonneg (x :: d)); lia). now rewrite app_nil_r.
Qed.
Lemma put_app c off a b : 0 <= off -> put (put c off a) (off + zlen a) b = put c off (a ++ b).
Proof.
  intros Hoff. destruct a as [|x a]; [cbn; now rewrite Z.add_0_r|].
  destruct b as [|y b]; [now rewrite app_nil_r|].
  set (A := x :: a). set (B := y :: b).
  rewrite (put_cons c off A), (put_cons _ _ B), (put_cons c off (A ++ B)) by discriminate.
  set (P := take off c ++ zeros (off - zlen c)).
  assert (HP : zlen P = off).
  { unfold P. rewrite zlen_app, zlen_take, zlen_zeros by lia. pose proof (zlen_nonneg c). lia. }
  set (S := drop (off + zlen A) c).
  replace (take off c ++ zeros (off - zlen c) ++ A ++ S) with ((P ++ A) ++ S)
    by (unfold P; now rewrite <- !app_assoc).
  assert (HPA : zlen (P ++ A) = off + zlen A) by (rewrite zlen_app; lia).
  pose proof (zlen_nonneg A). pose proof (zlen_nonneg B). pose proof (zlen_nonneg S).
  rewrite take_app_le, take_all by lia.
  rewrite zeros_nonpos by (rewrite zlen_app; lia).
  rewrite drop_app_ge by lia.
  replace (off + zlen A + zlen B - zlen (P ++ A)) with (zlen B) by lia.
  unfold S. rewrite drop_drop by lia.
  rewrite zlen_app. unfold P. rewrite <- !app_assoc, !Z.add_assoc. reflexivity.
Qed.

(* Content and offset after a write at offset p.  Writing a and then b is writing a ++ b (wa_app):
   this is what lets a buffer stand for the writes it holds, and _write_all split its data into
   requests. *)
Definition wa_content (app : bool) (c : list Z) (rp : Z) (data : list Z) : list Z :=
  if app then c ++ data else put c rp data.
Definition wa_pos (app : bool) (c : list Z) (rp : Z) (data : list Z) : Z :=
  if app then (if is_nil data then rp else zlen c + zlen data) else rp + zlen data.

Lemma wa_nil app c p : wa_content app c p [] = c /\ wa_pos app c p [] = p.
Proof. unfold wa_content, wa_pos. destruct app; cbn [is_nil]; rewrite ?app_nil_r, ?zlen_nil, ?Z.add_0_r; auto. Qed.
Lemma wa_pos_nonneg app c p d : 0 <= p -> 0 <= wa_pos app c p d.
Proof.
  unfold wa_pos. pose proof (zlen_nonneg c). pose proof (zlen_nonneg d).
  destruct app; [destruct (is_nil d)|]; lia.
Qed.
Lemma wa_app app c p a b : 0 <= p ->
  wa_content app (wa_content app c p a) (wa_pos app c p a) b = wa_content app c p (a ++ b) /\
  wa_pos app (wa_content app c p a) (wa_pos app c p a) b = wa_pos app c p (a ++ b).
Proof.
  intros Hp. unfold wa_content, wa_pos. destruct app.
  - rewrite <- app_assoc. split; [reflexivity|]. rewrite !zlen_app.
    destruct a, b; cbn [is_nil app]; rewrite ?app_nil_r, ?zlen_nil; lia.
  - rewrite put_app, zlen_app by lia. split; [reflexivity|lia].
Qed.

Lemma ref_write r d : r_wr r = true ->
  ref_step r (FWrite d) =
  (FNone, set_content r (wa_content (r_app r) (r_content r) (r_pos r) d)
                        (wa_pos (r_app r) (r_content r) (r_pos r) d)).
Proof.
  intros H. cbn [ref_step]. rewrite H. cbn [negb]. destruct (is_nil d) eqn:En.
  - apply is_nil_true in En. subst d.
    destruct (wa_nil (r_app r) (r_content r) (r_pos r)) as [-> ->]. now destruct r.
  - unfold wa_content, wa_pos. rewrite En. destruct (r_app r); [now rewrite put_end|reflexivity].
Qed.

Definition handle_ok (f : sfile) : Prop :=
  srv_ok (strm f) /\ s_app (strm f) = fl_append f /\
  (fl_append f = true -> fsize f = zlen (s_content (strm f))).

Lemma s_write_chunk data : data <> [] ->
  let chunk := take MAX_REQUEST_SIZE data in
  chunk <> [] /\ data = chunk ++ drop (zlen chunk) data /\
  (length (drop (zlen chunk) data) < length data)%nat.
Proof.
  intros H chunk. destruct (take_chunk MAX_REQUEST_SIZE data) as (H1 & _ & H3); [easy|].
  assert (Hne : chunk <> []) by auto.
  split; [exact Hne|]. split; [exact H1|].
  apply zlen_pos in Hne. fold chunk in H1. rewrite H1 at 2. rewrite app_length. unfold zlen in Hne. lia.
Qed.

Lemma write_all_round (f : sfile) data :
  handle_ok f -> data <> [] ->
  let chunk := take MAX_REQUEST_SIZE data in
  let c := s_content (strm f) in
  exists f1 : sfile,
    (forall k, write_all s_write (S k) f data = write_all s_write k f1 (drop (zlen chunk) data)) /\
    handle_ok f1 /\ fl_append f1 = fl_append f /\
    s_content (strm f1) = wa_content (fl_append f) c (realpos f) chunk /\
    realpos f1 = wa_pos (fl_append f) c (realpos f) chunk /\
    (pos f = realpos f -> pos f1 = realpos f1).
Proof.
  intros (Hok & Happ & Hsz) Hne chunk c. destruct (s_write_chunk data Hne) as (Hc1 & _ & _).
  fold chunk in Hc1. unfold handle_ok, srv_ok, wa_content, wa_pos in *.
  rewrite (proj2 (is_nil_false chunk) Hc1).
  destruct (fl_append f) eqn:Ea; eexists.
  all: split; [intros k; cbn [write_all]; rewrite (proj2 (is_nil_false data) Hne); unfold s_write;
               rewrite Happ, ?(srv_ok_seek _ _ Hok), Ea; reflexivity|].
  all: cbn; fold chunk c; rewrite ?Ea, ?zlen_app, ?(Hsz eq_refl).
  all: repeat split; auto; try discriminate; lia.
Qed.

Lemma write_all_srv fuel : forall (f : sfile) data,
  (length data < fuel)%nat -> handle_ok f -> 0 <= realpos f ->
  exists f', write_all s_write fuel f data = Some f' /\ handle_ok f' /\
    s_content (strm f') = wa_content (fl_append f) (s_content (strm f)) (realpos f) data /\
    realpos f' = wa_pos (fl_append f) (s_content (strm f)) (realpos f) data /\
    (pos f = realpos f -> pos f' = realpos f').
Proof.
  induction fuel as [|k IH]; intros f data Hl Hh Hrp; [inversion Hl|].
  destruct (is_nil data) eqn:En.
  - apply is_nil_true in En. subst data. exists f. cbn [write_all is_nil].
    destruct (wa_nil (fl_append f) (s_content (strm f)) (realpos f)) as [-> ->]. auto.
  - apply is_nil_false in En. destruct (s_write_chunk data En) as (_ & Hc2 & Hc3).
    destruct (write_all_round f data Hh En) as (f1 & Hround & Hh1 & Ea1 & C1 & R1 & P1).
    set (chunk := take MAX_REQUEST_SIZE data) in *. set (rest := drop (zlen chunk) data) in *.
    set (c := s_content (strm f)) in *.
    destruct (IH f1 rest ltac:(lia) Hh1) as (f' & E & Hh' & C' & R' & P').
    { rewrite R1. now apply wa_pos_nonneg. }
    destruct (wa_app (fl_append f) c (realpos f) chunk rest Hrp) as [A1 A2].
    exists f'. rewrite Hround. split; [exact E|]. split; [exact Hh'|]. split; [|split; [|auto]].
    + now rewrite C', Ea1, C1, R1, A1, <- Hc2.
    + now rewrite R', Ea1, C1, R1, A2, <- Hc2.
Qed.

Definition Lf (f : sfile) : list Z := L srv sRem f.

(* `view f`: the server's content with the pending write buffer applied at _pos.
   `sf_inv`: the read buffer is a correct read-ahead of the server's content at _pos, and holds
   nothing while writes are pending. *)
Definition view (f : sfile) : rfile :=
  mkrf (wa_content (fl_append f) (s_content (strm f)) (pos f) (wbuf f))
       (wa_pos (fl_append f) (s_content (strm f)) (pos f) (wbuf f))
       (fl_read f) (fl_write f) (fl_append f).

Record sf_inv (f : sfile) : Prop := mk_sf_inv {
  w_handle : handle_ok f;
  w_closed : closed f = false;
  w_bufsize : 0 < bufsize f;
  w_pos0 : 0 <= pos f;
  w_unbuf : fl_buffered f = false -> wbuf f = [];
  w_real : realpos f = pos f + zlen (rbuf f);
  w_L : Lf f = drop (pos f) (s_content (strm f));
  w_excl : wbuf f <> [] -> rbuf f = [] }.

Lemma sf_inv_rbnil (f : sfile) :
  handle_ok f -> closed f = false -> 0 < bufsize f -> 0 <= pos f ->
  (fl_buffered f = false -> wbuf f = []) -> rbuf f = [] -> realpos f = pos f -> sf_inv f.
Proof.
  intros H1 H2 H3 H4 H5 Hrb Hrp. constructor; auto.
  - rewrite Hrb, zlen_nil. lia.
  - unfold Lf, L, RemOf, sRem. now rewrite Hrb, Hrp.
Qed.

Lemma view_nil f : wbuf f = [] ->
  view f = mkrf (s_content (strm f)) (pos f) (fl_read f) (fl_write f) (fl_append f).
Proof.
  intros H. unfold view. rewrite H.
  now destruct (wa_nil (fl_append f) (s_content (strm f)) (pos f)) as [-> ->].
Qed.

Lemma with_wbuf_same (f : sfile) : with_wbuf f (wbuf f) = f.
Proof. now destruct f. Qed.

Lemma write_out fuel (f : sfile) data b :
  sf_inv f -> rbuf f = [] -> (length data < fuel)%nat -> (fl_buffered f = false -> b = []) ->
  exists f2, write_all s_write fuel f data = Some f2 /\ wbuf f2 = wbuf f /\
    sf_inv (with_wbuf f2 b) /\
    view (with_wbuf f2 b) =
      mkrf (wa_content (fl_append f) (s_content (strm f)) (pos f) (data ++ b))
           (wa_pos (fl_append f) (s_content (strm f)) (pos f) (data ++ b))
           (fl_read f) (fl_write f) (fl_append f).
Proof.
  intros W Hrb Hl Hb. pose proof (w_pos0 _ W) as Hp0.
  assert (Hrp : realpos f = pos f) by (rewrite (w_real _ W), Hrb, zlen_nil; lia).
  destruct (write_all_srv fuel f data Hl (w_handle _ W) ltac:(lia)) as (f2 & E & Hh & C & R & P).
  destruct (write_all_frame s_write (fun _ => tt) (fun _ _ _ _ _ _ => eq_refl) _ _ _ _ E) as (Fr & Fw & Hcl).
  unfold wr_frame in Fr. injection Fr as Frb Frd Fwr Fa Fb _ Fbs.
  specialize (P (eq_sym Hrp)). rewrite Hrp in *.
  destruct (wa_app (fl_append f) (s_content (strm f)) (pos f) data b Hp0) as [A1 A2].
  exists f2. split; [exact E|]. split; [exact Fw|]. split.
  - apply sf_inv_rbnil; cbn; try congruence.
    + exact Hh.
    + rewrite Hcl. apply W.
    + rewrite Fbs. apply W.
    + rewrite P, R. now apply wa_pos_nonneg.
    + now rewrite Fb.
  - unfold view. cbn. now rewrite C, P, R, Fa, A1, A2, Frd, Fwr.
Qed.

Lemma flush_prefix fuel (f : sfile) k :
  sf_inv f -> (length (wbuf f) < fuel)%nat -> 0 <= k ->
  exists f2, write_all s_write fuel f (take k (wbuf f)) = Some f2 /\
    sf_inv (with_wbuf f2 (drop k (wbuf f))) /\ view (with_wbuf f2 (drop k (wbuf f))) = view f.
Proof.
  intros W Hl Hk. pose proof (take_drop k (wbuf f)) as HAB.
  destruct (take k (wbuf f)) as [|a0 A'] eqn:EA.
  - rewrite write_all_nil. exists f. cbn [app] in HAB. rewrite HAB, with_wbuf_same. auto.
  - (* a non-empty prefix is written: then the read buffer is empty *)
    assert (Hwne : wbuf f <> []) by (rewrite <- HAB; discriminate).
    destruct (write_out fuel f (a0 :: A') (drop k (wbuf f)) W (w_excl _ W Hwne)) as (f2 & E & _ & W2 & V2).
    { pose proof (zlen_take k (wbuf f) Hk) as Hz. rewrite EA in Hz. unfold zlen in *. lia. }
    { intros Hb. now destruct (Hwne (w_unbuf _ W Hb)). }
    rewrite HAB in V2. eauto.
Qed.

Lemma flush_all fuel (f : sfile) :
  sf_inv f -> (length (wbuf f) < fuel)%nat ->
  exists f', bf_flush s_write fuel f = (Ok tt, f') /\ sf_inv f' /\ wbuf f' = [] /\ view f' = view f.
Proof.
  intros W Hl. pose proof (zlen_nonneg (wbuf f)).
  destruct (flush_prefix fuel f (zlen (wbuf f)) W Hl ltac:(lia)) as (f2 & E & W3 & V).
  rewrite take_all in E by lia. rewrite drop_all in W3, V by lia.
  unfold bf_flush. rewrite E. eauto.
Qed.

Lemma final_content_view fuel (f : sfile) :
  sf_inv f -> wbuf f = [] \/ (length (wbuf f) < fuel)%nat -> final_content fuel f = r_content (view f).
Proof.
  intros W [Hw|Hl]; unfold final_content, bf_close.
  - unfold bf_flush. rewrite Hw, write_all_nil, (view_nil f Hw). reflexivity.
  - destruct (flush_all fuel f W Hl) as (f1 & E & _ & Hw & V). rewrite E, <- V, (view_nil f1 Hw). reflexivity.
Qed.

Lemma obs_s_read {A} (obs : srv -> A) :
  (forall s fp t, obs (mksrv (s_content s) fp t (s_app s)) = obs s) ->
  forall s rp n d s', s_read s rp n = (d, s') -> obs s' = obs s.
Proof. intros H s rp n d s' [= _ <-]. apply H. Qed.

Lemma read_ready fuel (f : sfile) :
  sf_inv f -> wbuf f = [] -> (length (s_content (strm f)) < fuel)%nat ->
  inv srv (sInv (s_content (strm f))) f /\ (length (Lf f) < fuel)%nat /\
  fuel_ok srv sRem fuel f /\ rest (view f) = Lf f.
Proof.
  intros W Hw Hf. pose proof (w_pos0 _ W). pose proof (zlen_nonneg (rbuf f)).
  assert (HL : (length (Lf f) < fuel)%nat) by (rewrite (w_L _ W), drop_skipn, skipn_length; lia).
  split; [|split; [exact HL|split]].
  - unfold inv, sInv. rewrite (w_real _ W). split; [reflexivity|]. split; [lia|apply W].
  - unfold Lf, L in HL. rewrite app_length in HL. unfold fuel_ok. lia.
  - rewrite (view_nil f Hw). symmetry. apply W.
Qed.

Lemma read_sim (f f' : sfile) res :
  sf_inv f -> wbuf f = [] -> post srv sRem (sInv (s_content (strm f))) f f' res ->
  rd_frame s_app f' = rd_frame s_app f ->
  sf_inv f' /\ view f' = set_pos (view f) (r_pos (view f) + zlen res).
Proof.
  intros W Hw (P1 & P2 & (I1 & I2 & I3) & P4) Fr.
  fold (Lf f) in P1. fold (Lf f') in P1. pose proof (w_pos0 _ W). pose proof (zlen_nonneg res).
  assert (HL : Lf f' = drop (pos f') (s_content (strm f'))).
  { rewrite (app_drop_inv _ _ _ P1), (w_L _ W), P2, I1. now apply drop_drop. }
  assert (Hreal : realpos f' = pos f' + zlen (rbuf f')).
  { apply (f_equal zlen) in P1. unfold Lf, L in P1. rewrite !zlen_app in P1.
    unfold stream_end in P4. pose proof (w_real _ W). lia. }
  assert (Hpos : 0 <= pos f') by lia.
  unfold rd_frame in Fr. injection Fr as Fw Fsz Frd Fwr Fa Fb _ Fbs Fc Fapp. rewrite Hw in Fw.
  destruct (w_handle _ W) as (H1 & H2 & H3). split.
  - constructor; try congruence.
    + split; [exact I3|]. split; [congruence|]. rewrite Fa, Fsz, I1. exact H3.
    + rewrite Fc. apply W.
    + rewrite Fbs. apply W.
  - rewrite (view_nil f Hw), (view_nil f' Fw). cbn. now rewrite I1, P2, Frd, Fwr, Fa.
Qed.

(* the part common to read(n) and readline(size); `value`: what the reference returns from the
   bytes left *)
Lemma read_call_sim fuel (f : sfile) (call : result (list Z) * sfile) (value : list Z -> list Z) :
  sf_inv f -> wbuf f = [] -> (length (s_content (strm f)) < fuel)%nat ->
  (fl_read f = false -> call = (Raise IOErr, f)) ->
  (inv srv (sInv (s_content (strm f))) f -> fuel_ok srv sRem fuel f -> fl_read f = true ->
   exists f', call = (Ok (value (Lf f)), f') /\
              post srv sRem (sInv (s_content (strm f))) f f' (value (Lf f))) ->
  rd_frame s_app (snd call) = rd_frame s_app f ->
  let v := value (rest (view f)) in
  (if negb (r_rd (view f)) then (FExn, view f)
   else (FBytes v, set_pos (view f) (r_pos (view f) + zlen v))) =
    (fst (of_b call), view (snd (of_b call))) /\
  sf_inv (snd (of_b call)).
Proof.
  intros W G Hf Hno Hyes Fr v. destruct (read_ready fuel f W G Hf) as (Hi & _ & Hfo & Hrest).
  unfold v. rewrite Hrest. change (r_rd (view f)) with (fl_read f).
  destruct (fl_read f) eqn:Er; cbn [negb].
  - destruct (Hyes Hi Hfo eq_refl) as (f' & -> & P). cbn [of_b fst snd] in *.
    destruct (read_sim f f' _ W G P Fr) as [W' ->]. auto.
  - rewrite (Hno eq_refl). auto.
Qed.

(* appending d to the write buffer is write(d) on the reference *)
Lemma buffer_sim (f : sfile) d : 0 <= pos f ->
  set_content (view f) (wa_content (fl_append f) (r_content (view f)) (r_pos (view f)) d)
                       (wa_pos (fl_append f) (r_content (view f)) (r_pos (view f)) d)
  = view (with_wbuf f (wbuf f ++ d)).
Proof.
  intros Hp. unfold view, set_content. cbn.
  now destruct (wa_app (fl_append f) (s_content (strm f)) (pos f) (wbuf f) d Hp) as [-> ->].
Qed.

Definition call_fuel (fuel : nat) (f : sfile) (o : fop) : Prop :=
  (length (s_content (strm f)) + length (wbuf f)
   + match o with FWrite d => length d | _ => O end < fuel)%nat.

(* truncate is excluded: after it the buffers are stale, and it is dealt with at the end of the run
   (truncate_last) *)
Lemma step_sim fuel (f : sfile) o :
  sf_inv f -> finding_at f o = None -> call_fuel fuel f o -> (forall n, o <> FTruncate n) ->
  ref_step (view f) o = (fst (sf_step fuel f o), view (snd (sf_step fuel f o))) /\
  sf_inv (snd (sf_step fuel f o)).
Proof.
  intros W Hk Hfuel Hnt. unfold call_fuel in Hfuel. pose proof (w_pos0 _ W) as Hp0.
  pose proof (obs_s_read s_app (fun _ _ _ => eq_refl)) as Hobs.
  set (c := s_content (strm f)).
  destruct o as [n|size| |d|off whence| |n|]; cbn [finding_at] in Hk; cbn [sf_step].
  - destruct (is_nil (wbuf f)) eqn:G; [apply is_nil_true in G|discriminate].
    apply (read_call_sim fuel f _ (read_value n) W G); [lia| | |now apply read_frame].
    + intros Er. apply read_refused. auto.
    + intros Hi Hfo Er. apply (read_spec _ _ _ _ (s_read_spec c)); auto; apply W.
  - destruct (is_nil (wbuf f)) eqn:G; [apply is_nil_true in G|discriminate].
    apply (read_call_sim fuel f _ (line_spec size) W G); [lia| | |now apply readline_frame].
    + intros Er. apply readline_refused. auto.
    + intros Hi Hfo Er. apply (readline_spec _ _ _ _ (s_read_spec c)); auto; apply W.
  - destruct (is_nil (wbuf f)) eqn:G; [apply is_nil_true in G|discriminate].
    cbn [ref_step]. destruct (read_ready fuel f W G ltac:(lia)) as (Hi & HL & _ & ->).
    change (r_rd (view f)) with (fl_read f). unfold bf_readlines.
    pose proof (readlines_frame s_read s_app Hobs fuel None fuel 0 f) as Fr.
    destruct (fl_read f) eqn:Er; cbn [negb].
    + destruct (readlines_spec _ _ _ _ (s_read_spec c) fuel None fuel 0 f Hi HL HL
                  (w_bufsize _ W) (w_closed _ W) Er)
        as (ls & f' & E & P & Hls). destruct (Hls eq_refl) as [-> HL']. clear Hls.
      rewrite E in *. cbn [fst snd] in *. unfold Lf in *.
      assert (Hall : concat (lines_of fuel (L srv sRem f)) = L srv sRem f)
        by (destruct P as [P1 _]; rewrite HL', app_nil_r in P1; now symmetry).
      rewrite Hall in P. destruct (read_sim f f' _ W G P Fr) as [W' ->].
      now rewrite (lines_of_fuel (Datatypes.S (length (L srv sRem f))) fuel) by lia.
    + destruct fuel as [|k]; [inversion Hfuel|]. cbn [readlines_loop].
      rewrite readline_refused by auto. auto.
  - destruct (is_nil (rbuf f)) eqn:G; [apply is_nil_true in G|discriminate].
    assert (Hrp : realpos f = pos f) by (rewrite (w_real _ W), G, zlen_nil; lia).
    destruct (fl_write f) eqn:Ew.
    2: { rewrite write_refused by auto. cbn [ref_step]. change (r_wr (view f)) with (fl_write f).
         rewrite Ew. auto. }
    rewrite (ref_write (view f) d Ew). change (r_app (view f)) with (fl_append f).
    rewrite (buffer_sim f d Hp0). set (wb := wbuf f ++ d).
    destruct (fl_buffered f) eqn:Eb.
    + (* buffered: d joins the buffer, a prefix of which is written out *)
      assert (W1 : sf_inv (with_wbuf f wb))
        by (apply sf_inv_rbnil; cbn; auto; try apply W; intros Hb; congruence).
      destruct (flush_prefix fuel (with_wbuf f wb) (flush_amount f d) W1) as (f2 & E & W3 & V3).
      { cbn. unfold wb. rewrite app_length. lia. }
      { apply flush_amount_range. }
      rewrite (write_buffered s_write fuel f d f2 (w_closed _ W) Ew Eb E). cbn [of_u fst snd].
      change (wbuf (with_wbuf f wb)) with (wbuf f ++ d) in *. rewrite V3. auto.
    + (* unbuffered: the buffer is empty, the data goes straight out *)
      pose proof (w_unbuf _ W Eb) as Hwb. unfold wb. rewrite Hwb in *. cbn [app].
      destruct (write_out fuel f d [] W G ltac:(lia) (fun _ => eq_refl)) as (f2 & E & Fw & W2 & V2).
      rewrite (write_unbuffered s_write fuel f d f2 (w_closed _ W) Ew Eb E). cbn [of_u fst snd].
      rewrite Hwb in Fw.
      assert (Hf2 : with_wbuf f2 [] = f2) by (rewrite <- Fw; apply with_wbuf_same).
      rewrite Hf2, app_nil_r in *. rewrite V2. auto.
  - destruct (flush_all fuel f W ltac:(lia)) as (f1 & E & W1 & Hw1 & V1).
    cbn [ref_step]. unfold sf_seek. rewrite E, <- V1, (view_nil f1 Hw1). cbn [r_pos r_content].
    destruct (_ <? 0) eqn:Ep; cbn [fst snd]; [rewrite (view_nil f1 Hw1); auto|].
    split; [now rewrite view_nil|]. apply Z.ltb_ge in Ep.
    apply sf_inv_rbnil; cbn; try apply W1; auto.
  - destruct (is_nil (wbuf f)) eqn:G; [apply is_nil_true in G|discriminate].
    cbn [ref_step fst snd]. rewrite (view_nil f G). auto.
  - now destruct (Hnt n).
  - destruct (flush_all fuel f W ltac:(lia)) as (f1 & E & W1 & _ & V1). rewrite E. cbn. rewrite V1. auto.
Qed.

Definition refines (fuel : nat) (f : sfile) (ops : list fop) : Prop :=
  fst (sf_run fuel f ops) = fst (ref_run (view f) ops) /\
  final_content fuel (snd (sf_run fuel f ops)) = r_content (snd (ref_run (view f) ops)).

Lemma refines_cons fuel (f : sfile) o ops :
  ref_step (view f) o = (fst (sf_step fuel f o), view (snd (sf_step fuel f o))) ->
  refines fuel (snd (sf_step fuel f o)) ops -> refines fuel f (o :: ops).
Proof.
  unfold refines. cbn [sf_run ref_run]. intros ->. destruct (sf_step fuel f o) as [x f1]. cbn [fst snd].
  destruct (sf_run fuel f1 ops) as [xs f2], (ref_run (view f1) ops) as [ys r2]. cbn.
  intros [-> H]. auto.
Qed.

(* truncate resizes the server's file under the client's buffers: allowed as the last call only *)
Lemma truncate_last fuel (f : sfile) n :
  finding_at f (FTruncate n) = None -> refines fuel f [FTruncate n].
Proof.
  intros Hk. unfold refines. cbn [finding_at] in Hk.
  destruct (fl_write f) eqn:Hwr; [|discriminate].
  destruct (is_nil (wbuf f)) eqn:Hwb; [apply is_nil_true in Hwb|discriminate].
  cbn [sf_run ref_run sf_step ref_step]. unfold sf_truncate, final_content, bf_close, bf_flush.
  rewrite (view_nil f Hwb). cbn [r_wr]. rewrite Hwr.
  destruct (n <? 0); cbn; rewrite Hwb, write_all_nil; auto.
Qed.

(* `fuel` is enough for every call of the run that loops (truncate does not) and for the final
   flush of close() *)
Fixpoint fuel_enough (fuel : nat) (f : sfile) (ops : list fop) : Prop :=
  match ops with
  | [] => wbuf f = [] \/ (length (wbuf f) < fuel)%nat
  | o :: r => (match o with FTruncate _ => True | _ => call_fuel fuel f o end) /\
              fuel_enough fuel (snd (sf_step fuel f o)) r
  end.

Lemma run_sim fuel : forall ops (f : sfile),
  sf_inv f -> first_finding_from fuel f ops = None -> fuel_enough fuel f ops -> refines fuel f ops.
Proof.
  induction ops as [|o ops IH]; intros f W Hk Hfu.
  - split; [reflexivity|]. now apply final_content_view.
  - cbn [first_finding_from] in Hk. destruct (finding_at f o) as [k|] eqn:Ek; [discriminate|].
    destruct Hfu as [Hf1 Hf2].
    assert (Hgen : (forall n, o <> FTruncate n) -> call_fuel fuel f o ->
              first_finding_from fuel (snd (sf_step fuel f o)) ops = None -> refines fuel f (o :: ops)).
    { intros Hnt Hcf Hk'. destruct (step_sim fuel f o W Ek Hcf Hnt) as [E W1].
      apply refines_cons; auto. }
    destruct o; try (apply Hgen; [discriminate|exact Hf1|exact Hk]).
    (* truncate: necessarily the last call *)
    destruct ops; [now apply truncate_last|discriminate Hk].
Qed.

(* paramiko reads the bare mode "x" as neither readable nor writable: there the two differ *)
Lemma open_sim m bufsz file f0 :
  sf_open m bufsz file = Some f0 -> m <> Mxbare -> sf_inv f0 /\ ref_open m file = Some (view f0).
Proof.
  intros Hs Hm. unfold sf_open, ref_open in *.
  assert (Hgen : forall c',
      let f : sfile := set_mode (match m with Mr | Mrp => true | _ => false end)
                (match m with Mw | Mwp | Mx => true | _ => false end) (m_append m)
                (match m with Mrp | Mwp | Map => true | _ => false end) bufsz (zlen c')
                (mksrv c' (if m_append m then zlen c' else 0) None (m_append m)) in
      sf_inv f /\ mkrf c' (if m_append m then zlen c' else 0) (m_read m) (m_write m) (m_append m) = view f).
  { intros c' f. split.
    - apply sf_inv_rbnil; try reflexivity; [|apply set_mode_bufsize|].
      + split; [exact I|]. split; [reflexivity|]. unfold f. cbn. now intros ->.
      + unfold f. cbn. pose proof (zlen_nonneg c'). destruct (m_append m); lia.
    - rewrite (view_nil f eq_refl). unfold f. cbn. now destruct m. }
  destruct file as [c0|].
  - destruct (m_excl m); [discriminate|]. injection Hs as <-.
    destruct (Hgen (if m_trunc m then [] else c0)) as [W <-]. auto.
  - destruct (m_must_exist m); [discriminate|]. injection Hs as <-. destruct (Hgen []) as [W V].
    split; [exact W|]. rewrite <- V. now destruct (m_append m).
Qed.

Lemma fuel_suffices_enough fuel : forall ops (f : sfile),
  fuel_suffices fuel f ops = true -> fuel_enough fuel f ops.
Proof.
  induction ops as [|o ops IH]; intros f H; cbn [fuel_suffices fuel_enough] in *.
  - right. now apply Nat.ltb_lt.
  - apply andb_true_iff in H as [H1 H2]. apply Nat.ltb_lt in H1. split; [now destruct o|auto].
Qed.

Lemma guarded_outside fuel : forall ops (f : sfile),
  guarded fuel f ops = true -> first_finding_from fuel f ops = None /\ fuel_enough fuel f ops.
Proof.
  induction ops as [|o ops IH]; intros f G; cbn [guarded first_finding_from fuel_enough] in *.
  - split; [reflexivity|]. right. now apply Nat.ltb_lt.
  - (* a guarded call that is not the final truncate *)
    assert (Hgen : guard fuel f o && guarded fuel (snd (sf_step fuel f o)) ops = true ->
              finding_at f o = None /\ call_fuel fuel f o /\ (forall n, o <> FTruncate n) /\
              first_finding_from fuel (snd (sf_step fuel f o)) ops = None /\
              fuel_enough fuel (snd (sf_step fuel f o)) ops).
    { intros H. apply andb_true_iff in H as [G1 G2]. apply andb_true_iff in G1 as [Gf Gc].
      apply Nat.ltb_lt in Gf. destruct (IH _ G2) as [K F].
      destruct o; try discriminate Gc; cbn [finding_at]; rewrite ?Gc; repeat split; auto; discriminate. }
    destruct o; try (destruct (Hgen G) as (-> & Hf & _ & K & F); now auto).
    destruct ops; [|now destruct (Hgen G) as (_ & _ & Hnt & _); destruct (Hnt size)].
    apply andb_true_iff in G as [G Hn]. apply andb_true_iff in G as [Hwb Hwr].
    cbn [finding_at first_finding_from fuel_enough sf_step]. rewrite Hwr, Hwb. cbn [negb].
    split; [reflexivity|]. split; [exact I|]. left. apply is_nil_true in Hwb.
    unfold sf_truncate. now destruct (size <? 0).
Qed.

Lemma refines_partial :
  forall (m : fmode) (bufsz : Z) (file : option (list Z)) (ops : list fop) (fuel : nat)
         (f0 : sfile) (r0 : rfile),
    sf_open m bufsz file = Some f0 -> ref_open m file = Some r0 -> m <> Mxbare ->
    guarded fuel f0 ops = true ->
    fst (sf_run fuel f0 ops) = fst (ref_run r0 ops) /\
    final_content fuel (snd (sf_run fuel f0 ops)) = r_content (snd (ref_run r0 ops)).
Proof.
  intros m bufsz file ops fuel f0 r0 Hs Hr Hm G.
  destruct (open_sim _ _ _ _ Hs Hm) as [W V]. rewrite V in Hr. injection Hr as <-.
  destruct (guarded_outside fuel ops f0 G) as [K F]. now apply run_sim.
Qed.

Lemma snd_of_b p : snd (of_b p) = snd p.
Proof. now destruct p as [[b|e] f]. Qed.

Lemma read_only_keeps fuel (f : sfile) o : read_only_op o = true -> wbuf f = [] ->
  wbuf (snd (sf_step fuel f o)) = [] /\
  s_content (strm (snd (sf_step fuel f o))) = s_content (strm f).
Proof.
  intros Ho Hw. pose proof (obs_s_read s_content (fun _ _ _ => eq_refl)) as Hobs.
  assert (Hfr : forall f' : sfile, rd_frame s_content f' = rd_frame s_content f ->
            wbuf f' = [] /\ s_content (strm f') = s_content (strm f)).
  { unfold rd_frame. intros f' [= Fw _ _ _ _ _ _ _ _ Fc]. exact (conj (eq_trans Fw Hw) Fc). }
  destruct o; try discriminate; cbn [sf_step]; rewrite ?snd_of_b.
  - now apply Hfr, read_frame.
  - now apply Hfr, readline_frame.
  - unfold sf_seek, bf_flush. rewrite Hw, write_all_nil. cbn. now destruct (_ <? 0).
  - auto.
Qed.

Lemma read_only_outside fuel : forall ops (f : sfile),
  sf_inv f -> wbuf f = [] -> forallb read_only_op ops = true ->
  (length (s_content (strm f)) < fuel)%nat ->
  first_finding_from fuel f ops = None /\ fuel_enough fuel f ops.
Proof.
  induction ops as [|o ops IH]; intros f W Hw Ho Hf; cbn [first_finding_from fuel_enough].
  - auto.
  - cbn [forallb] in Ho. apply andb_true_iff in Ho as [Ho1 Ho2].
    assert (Ek : finding_at f o = None) by (destruct o; try discriminate; cbn; now rewrite ?Hw).
    assert (Hcf : call_fuel fuel f o)
      by (unfold call_fuel; rewrite Hw; destruct o; try discriminate; cbn; lia).
    assert (Hnt : forall n, o <> FTruncate n) by (intros n ->; discriminate).
    destruct (step_sim fuel f o W Ek Hcf Hnt) as [_ W1].
    destruct (read_only_keeps fuel f o Ho1 Hw) as [Hw1 Hc1].
    destruct (IH _ W1 Hw1 Ho2 ltac:(now rewrite Hc1)) as [K F].
    rewrite Ek. destruct o; try discriminate; auto.
Qed.

(* witnesses of the divergences recorded as known findings *)
Definition diverges (m : fmode) (bufsz : Z) (init : list Z) (ops : list fop) : Prop :=
  exists f0 r0, sf_open m bufsz (Some init) = Some f0 /\ ref_open m (Some init) = Some r0 /\
    (fst (sf_run 100 f0 ops) <> fst (ref_run r0 ops) \/
     final_content 100 (snd (sf_run 100 f0 ops)) <> r_content (snd (ref_run r0 ops))).

(* the witnesses are closed runs of the model and of the reference: evaluate both *)
Ltac witness := unfold diverges; eexists _, _; split; [reflexivity|]; split; [reflexivity|];
                vm_compute; first [left; discriminate | right; discriminate].

Definition shape_of (m : fmode) (bufsz : Z) (file : option (list Z)) (ops : list fop) : option finding :=
  match sf_open m bufsz file with Some f0 => first_finding m 100 f0 ops | None => None end.

(* tie to the source: MAX_REQUEST_SIZE, the wire flags and the open-mode table, regenerated on
   every run from sftp_file.py / sftp_client.py / sftp_server.py (coq/Gen/C27_gen.v, gen/c27.py) *)
Definition open_row_ok (row : Z * (Z * (Z * bool * bool * bool * bool) * Z)) : bool :=
  let '(k, (pflags, (acc, app, creat, trunc, excl), fl)) := row in
  let m := fmode_of k in
  (* O_TRUNC is immaterial under O_EXCL (the file is new): the model does not represent it there *)
  Bool.eqb (m_append m) app && (m_excl m || Bool.eqb (m_trunc m) trunc) && Bool.eqb (m_excl m) excl &&
  Bool.eqb (m_must_exist m) (negb creat) &&
  (acc =? (if p_read m then (if p_write m then 2 else 0) else (if p_write m then 1 else 0))) &&
  (pflags =? (if p_read m then G_SFTP_FLAG_READ else 0) + (if p_write m then G_SFTP_FLAG_WRITE else 0) +
             (if m_append m then G_SFTP_FLAG_APPEND else 0) +
             (if m_must_exist m then 0 else G_SFTP_FLAG_CREATE) +
             (if trunc then G_SFTP_FLAG_TRUNC else 0) + (if m_excl m then G_SFTP_FLAG_EXCL else 0)) &&
  match sf_open m 0 (if m_excl m then None else Some []) with
  | Some f => (flags_of f =? fl) && Bool.eqb (fl_read f) (p_read m) && Bool.eqb (fl_write f) (p_write m) &&
              Bool.eqb (s_app (strm f)) app
  | None => false
  end.
