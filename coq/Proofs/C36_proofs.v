(* C36 — lemmas about Model/C36.v: each class's public blob read back by its constructor,
   equality through _fields, and the permission bits os.open leaves on a key file. *)
From Coq Require Import ZArith List Bool Lia.
From PV Require Import Bytes ListFacts C39 C39_proofs C35_gen C35 C36_gen C36.
Import ListNotations.
Open Scope Z_scope.

Lemma coord_spec c v :
  0 <= v < 256 ^ Z.of_nat (klen c) ->
  length (coord c v) = klen c /\ be_decode (coord c v) = v.
Proof.
  intros [H0 H1]. unfold coord.
  destruct (deflate_unsigned v H0) as (_ & Hd & Hl). cbv zeta in *.
  assert (Hk : (1 <= klen c)%nat)
    by (unfold klen, gen_curve_klen_0, gen_curve_klen_1, gen_curve_klen_2;
        destruct (c =? 0); [lia|destruct (c =? 1); lia]).
  specialize (Hl (klen c) H1 Hk).
  split; [rewrite app_length, repeat_length; lia|].
  rewrite be_decode_app, be_decode_repeat0. lia.
Qed.

Lemma point_decode c x y :
  0 <= x < 256 ^ Z.of_nat (klen c) -> 0 <= y < 256 ^ Z.of_nat (klen c) ->
  let r := coord c x ++ coord c y in
  length r = (2 * klen c)%nat /\
  be_decode (firstn (klen c) r) = x /\ be_decode (skipn (klen c) r) = y.
Proof.
  intros Hx Hy. cbv zeta.
  destruct (coord_spec c x Hx) as (Lx & Dx). destruct (coord_spec c y Hy) as (Ly & Dy).
  split; [rewrite app_length; lia|].
  rewrite <- Lx, firstn_app_exact, skipn_app_exact. auto.
Qed.

Definition ascii (s : list Z) : bool := forallb (fun c => (0 <=? c) && (c <? 128)) s.

Lemma ident_facts c :
  c = 0 \/ c = 1 \/ c = 2 ->
  ascii (ecdsa_ident c) = true /\ ascii (curve_name c) = true /\
  curve_of_ident (strip_cert_suffix (ecdsa_ident c)) = Some c /\
  existsb (zlist_eqb (ecdsa_ident c)) ec_idents = true.
Proof. intros [->|[->| ->]]; vm_compute; repeat split; reflexivity. Qed.

Section Oracles.
  Variable utf8_ok : list Z -> bool.
  Variable rsa_numbers_ok : Z -> Z -> bool.
  Variable on_curve : Z -> Z -> Z -> bool.
  Hypothesis Hascii : forall s, ascii s = true -> utf8_ok s = true.

  Lemma roundtrip_rsa e n bs :
    rsa_numbers_ok e n = true -> asbytes (PRsa e n) = Ok bs ->
    from_blob_rsa utf8_ok rsa_numbers_ok bs = Ok (PRsa e n, false).
  Proof.
    intros Hok He. cbn [asbytes] in He.
    destruct (reads_back_whole [FString s_ssh_rsa; FMpint e; FMpint n] bs eq_refl He)
      as (p1 & G1 & p2 & (eb & G2 & E2) & p3 & (nb & G3 & E3) & _).
    unfold from_blob_rsa, check_type, text.
    rewrite G1, (Hascii s_ssh_rsa eq_refl). cbn [bind].
    change (existsb (zlist_eqb s_ssh_rsa) [s_ssh_rsa]) with true. cbv iota. cbn [bind].
    rewrite G2, G3, E2, E3, Hok. reflexivity.
  Qed.

  Lemma roundtrip_ecdsa c x y bs :
    (c = 0 \/ c = 1 \/ c = 2) ->
    0 <= x < 256 ^ Z.of_nat (klen c) -> 0 <= y < 256 ^ Z.of_nat (klen c) -> on_curve c x y = true ->
    asbytes (PEc c x y) = Ok bs ->
    from_blob_ecdsa utf8_ok on_curve bs = Ok (PEc c x y, false).
  Proof.
    intros Hc Hx Hy Hon He. cbn [asbytes] in He.
    destruct (ident_facts c Hc) as (Ia & Ca & Hcur & Hex).
    destruct (point_decode c x y Hx Hy) as (Pl & Px & Py). cbv zeta in Pl, Px, Py.
    destruct (reads_back_whole [FString (ecdsa_ident c); FString (curve_name c); FString (point c x y)]
                bs eq_refl He) as (p1 & G1 & p2 & G2 & p3 & G3 & _).
    unfold from_blob_ecdsa, check_type, text.
    rewrite G1, (Hascii _ Ia). cbn [bind]. rewrite Hcur, Hex. cbn [bind].
    rewrite G2, (Hascii _ Ca). cbn [bind]. rewrite zlist_eqb_refl. cbn [negb]. rewrite G3.
    unfold point. rewrite Pl, Nat.eqb_refl, Px, Py, Hon. reflexivity.
  Qed.

  Lemma roundtrip_ed pk bs :
    length pk = 32%nat -> asbytes (PEd pk) = Ok bs ->
    from_blob_ed utf8_ok bs = Ok (PEd pk, false).
  Proof.
    intros Hl He. cbn [asbytes] in He.
    destruct (two_strings _ _ _ He) as (p1 & p2 & G1 & G2).
    unfold from_blob_ed, check_type, text.
    rewrite G1, (Hascii s_ed25519 eq_refl). cbn [bind].
    change (existsb (zlist_eqb s_ed25519) [s_ed25519]) with true. cbv iota. cbn [bind].
    rewrite G2, Hl. reflexivity.
  Qed.
End Oracles.

Definition curve_ok (p : pubmat) : Prop :=
  match p with PEc c _ _ => c = 0 \/ c = 1 \/ c = 2 | _ => True end.

Lemma fields_eqb_eq a b : fields_eqb a b = true <-> a = b.
Proof.
  destruct a as [[n1 z1] b1], b as [[n2 z2] b2]. cbn [fields_eqb].
  rewrite !andb_true_iff, !zlist_eqb_eq.
  split; [intros [[-> ->] ->]; reflexivity | intros H; injection H as -> -> ->; auto].
Qed.

Lemma curve_name_inj c1 c2 :
  (c1 = 0 \/ c1 = 1 \/ c1 = 2) -> (c2 = 0 \/ c2 = 1 \/ c2 = 2) ->
  curve_name c1 = curve_name c2 -> c1 = c2.
Proof. intros [->|[->| ->]] [->|[->| ->]] H; try reflexivity; discriminate H. Qed.

(* across classes the triples differ in the first byte of the name (ssh-rsa / ecdsa-sha2-...) or in
   which of the number list and the byte string is empty; within ECDSA the names differ in the curve *)
Lemma fields_inj k1 k2 :
  curve_ok (k_pub k1) -> curve_ok (k_pub k2) -> fields k1 = fields k2 -> k_pub k1 = k_pub k2.
Proof.
  unfold fields.
  destruct (k_pub k1) as [e1 n1|c1 x1 y1|pk1], (k_pub k2) as [e2 n2|c2 x2 y2|pk2];
    cbn [curve_ok]; intros W1 W2 H; injection H; try discriminate.
  - congruence.
  - intros -> -> Hn. rewrite (curve_name_inj c1 c2 W1 W2 Hn). reflexivity.
  - congruence.
Qed.

Lemma eq_iff_pub k1 k2 :
  curve_ok (k_pub k1) -> curve_ok (k_pub k2) ->
  (key_eq k1 k2 = true <-> k_pub k1 = k_pub k2).
Proof.
  intros W1 W2. unfold key_eq. rewrite fields_eqb_eq.
  split; [apply fields_inj; assumption | unfold fields; intros ->; reflexivity].
Qed.

Lemma fs_get_set fs path v : fs_get (fs_set fs path v) path = Some v.
Proof.
  induction fs as [|[p w] r IH]; cbn [fs_set fs_get].
  - rewrite Z.eqb_refl. reflexivity.
  - destruct (p =? path) eqn:E; cbn [fs_get]; rewrite E; [reflexivity|exact IH].
Qed.

Lemma fs_get_set_other fs path v q : q <> path -> fs_get (fs_set fs path v) q = fs_get fs q.
Proof.
  intros Hq. induction fs as [|[p w] r IH]; cbn [fs_set fs_get].
  - destruct (path =? q) eqn:E; [lia|reflexivity].
  - destruct (p =? path) eqn:E; cbn [fs_get].
    + destruct (p =? q) eqn:E2; [lia|reflexivity].
    + destruct (p =? q); [reflexivity|exact IH].
Qed.

Lemma write_key_file_get fs umask path mode content :
  fs_get (write_key_file fs umask path mode content) path =
  Some (match fs_get fs path with Some (m, _) => m | None => Z.land mode (Z.lnot umask) end, content).
Proof. unfold write_key_file. destruct (fs_get fs path) as [[m old]|]; apply fs_get_set. Qed.

Lemma write_key_file_other fs umask path mode content q :
  q <> path -> fs_get (write_key_file fs umask path mode content) q = fs_get fs q.
Proof.
  intros Hq. unfold write_key_file.
  destruct (fs_get fs path) as [[m old]|]; apply fs_get_set_other; exact Hq.
Qed.
