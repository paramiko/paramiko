(* C33 — lemmas about Model/C33.v: what the flags word says, each segment of the attribute block
   read back at a cursor (in the style of the cursor lemmas of C39_proofs), the round trip at any
   cursor, and when _pack succeeds. *)
From PV Require Import Bytes ListFacts C39 C39_proofs C33_gen C33.
From Coq Require Import ZArith List Bool Lia.
Import ListNotations.
Open Scope Z_scope.

Lemma flags_b_has b1 b2 b3 b4 b5 :
  let f := flags_b b1 b2 b3 b4 b5 in
  has f FLAG_SIZE = b1 /\ has f FLAG_UIDGID = b2 /\ has f FLAG_PERMISSIONS = b3 /\
  has f FLAG_AMTIME = b4 /\ has f FLAG_EXTENDED = b5.
Proof. destruct b1, b2, b3, b4, b5; vm_compute; repeat split. Qed.

Lemma flags_b_sum b1 b2 b3 b4 b5 :
  flags_b b1 b2 b3 b4 b5 =
  (if b1 then FLAG_SIZE else 0) + (if b2 then FLAG_UIDGID else 0) + (if b3 then FLAG_PERMISSIONS else 0) +
  (if b4 then FLAG_AMTIME else 0) + (if b5 then FLAG_EXTENDED else 0).
Proof. destruct b1, b2, b3, b4, b5; reflexivity. Qed.

Lemma flags_b_u32 b1 b2 b3 b4 b5 :
  (0 <=? flags_b b1 b2 b3 b4 b5) && (flags_b b1 b2 b3 b4 b5 <? 2 ^ 32) = true.
Proof. destruct b1, b2, b3, b4, b5; reflexivity. Qed.

Lemma flags_has a :
  has (flags_of a) FLAG_SIZE = is_some (a_size a) /\
  has (flags_of a) FLAG_UIDGID = is_some (a_uid a) && is_some (a_gid a) /\
  has (flags_of a) FLAG_PERMISSIONS = is_some (a_mode a) /\
  has (flags_of a) FLAG_AMTIME = is_some (a_atime a) && is_some (a_mtime a) /\
  has (flags_of a) FLAG_EXTENDED = nonempty (a_ext a).
Proof. unfold flags_of. apply flags_b_has. Qed.

Lemma flags_exact a :
  flags_of a =
  (if is_some (a_size a) then FLAG_SIZE else 0) +
  (if is_some (a_uid a) && is_some (a_gid a) then FLAG_UIDGID else 0) +
  (if is_some (a_mode a) then FLAG_PERMISSIONS else 0) +
  (if is_some (a_atime a) && is_some (a_mtime a) then FLAG_AMTIME else 0) +
  (if nonempty (a_ext a) then FLAG_EXTENDED else 0).
Proof. unfold flags_of. apply flags_b_sum. Qed.

Lemma dec_size_at fl a s buf pos rest :
  has fl FLAG_SIZE = is_some (a_size a) -> enc_size fl a = Ok s -> skipn pos buf = s ++ rest ->
  dec_size fl buf pos = (a_size a, (pos + length s)%nat).
Proof.
  intros Hf He Hs. unfold enc_size, dec_size in *. rewrite Hf in *.
  destruct (a_size a) as [v|]; cbn [is_some opt_u64] in *.
  - rewrite (get_int64_at buf pos v s rest He Hs). reflexivity.
  - injection He as <-. rewrite Nat.add_0_r. reflexivity.
Qed.

Lemma dec_mode_at fl a s buf pos rest :
  has fl FLAG_PERMISSIONS = is_some (a_mode a) -> enc_mode fl a = Ok s -> skipn pos buf = s ++ rest ->
  dec_mode fl buf pos = (a_mode a, (pos + length s)%nat).
Proof.
  intros Hf He Hs. unfold enc_mode, dec_mode in *. rewrite Hf in *.
  destruct (a_mode a) as [v|]; cbn [is_some opt_u32] in *.
  - rewrite (get_int_at buf pos v s rest He Hs). reflexivity.
  - injection He as <-. rewrite Nat.add_0_r. reflexivity.
Qed.

(* uid/gid and atime/mtime: the same shape, up to what a None would raise *)
Lemma dec_pair_at (enc : option Z -> result (list Z)) fl bit (o1 o2 : option Z) s buf pos rest :
  (forall v, enc (Some v) = pack_u32 v) ->
  has fl bit = is_some o1 && is_some o2 ->
  (if has fl bit
   then bind (enc o1) (fun x => bind (enc o2) (fun y => Ok (x ++ y)))
   else Ok []) = Ok s ->
  skipn pos buf = s ++ rest ->
  dec_pair fl bit buf pos =
  (if is_some o1 && is_some o2 then o1 else None,
   if is_some o1 && is_some o2 then o2 else None, (pos + length s)%nat).
Proof.
  intros Henc Hf He Hs. unfold dec_pair. rewrite Hf in *.
  destruct o1 as [u|], o2 as [g|]; cbn [is_some andb] in *;
    try (injection He as <-; rewrite Nat.add_0_r; reflexivity).
  rewrite !Henc in He.
  apply bind_ok in He as (x & Ex & He). apply bind_ok in He as (y & Ey & He). injection He as <-.
  rewrite <- app_assoc in Hs.
  rewrite (get_int_at buf pos u x _ Ex Hs), (get_int_at buf _ g y rest Ey (skipn_past _ _ _ _ Hs)).
  rewrite app_length, Nat.add_assoc. reflexivity.
Qed.

Lemma dict_set_fresh d k v :
  ~ In k (map fst d) -> dict_set d k v = d ++ [(k, v)].
Proof.
  induction d as [|[k' v'] d IH]; intros Hn; [reflexivity|].
  cbn [dict_set map fst] in *.
  destruct (zlist_eqb k' k) eqn:E.
  - apply zlist_eqb_eq in E. exfalso. apply Hn. left. exact E.
  - rewrite IH; [reflexivity|]. intros Hi. apply Hn. right. exact Hi.
Qed.

Lemma enc_pairs_cons k v r e :
  enc_pairs ((k, v) :: r) = Ok e ->
  exists x y z, add_string k = Ok x /\ add_string v = Ok y /\ enc_pairs r = Ok z /\ e = x ++ y ++ z.
Proof.
  cbn [enc_pairs]. intros H. apply bind_ok in H as (x & Ex & H).
  apply bind_ok in H as (y & Ey & H). apply bind_ok in H as (z & Ez & H).
  injection H as <-. exists x, y, z. auto.
Qed.

(* a pair is two length-prefixed strings: at least 8 bytes, which is what the count guard relies on *)
Lemma enc_pairs_len8 l : forall e, enc_pairs l = Ok e -> (8 * length l <= length e)%nat.
Proof.
  induction l as [|[k v] r IH]; intros e He.
  - cbn. lia.
  - apply enc_pairs_cons in He as (x & y & z & Ex & Ey & Ez & ->).
    apply add_string_ok in Ex as [_ ->]. apply add_string_ok in Ey as [_ ->].
    specialize (IH z Ez). rewrite !app_length, !be_encode_length. cbn [length]. lia.
Qed.

Lemma enc_pairs_len l : forall e, enc_pairs l = Ok e -> (length l <= length e)%nat.
Proof. intros e He. pose proof (enc_pairs_len8 l e He). lia. Qed.

Lemma ext_loop_at l : forall d buf pos e rest,
  enc_pairs l = Ok e -> skipn pos buf = e ++ rest -> NoDup (map fst (d ++ l)) ->
  ext_loop false (length l) buf pos d = (d ++ l, (pos + length e)%nat).
Proof.
  induction l as [|[k v] r IH]; intros d buf pos e rest He Hs Hnd.
  - injection He as <-. cbn [length ext_loop]. rewrite app_nil_r, Nat.add_0_r. reflexivity.
  - apply enc_pairs_cons in He as (x & y & z & Ex & Ey & Ez & ->).
    rewrite <- !app_assoc in Hs. cbn [length ext_loop].
    rewrite (get_string_at buf pos k x _ Ex Hs). apply skipn_past in Hs.
    rewrite (get_string_at buf _ v y _ Ey Hs). apply skipn_past in Hs.
    assert (Hfresh : ~ In k (map fst d)).
    { rewrite map_app in Hnd. cbn [map fst] in Hnd.
      apply NoDup_remove_2 in Hnd. intros Hi. apply Hnd. apply in_or_app. left. exact Hi. }
    rewrite (dict_set_fresh d k v Hfresh).
    rewrite (IH (d ++ [(k, v)]) buf _ z rest Ez Hs) by (rewrite <- app_assoc; exact Hnd).
    rewrite <- app_assoc, !app_length, !Nat.add_assoc. reflexivity.
Qed.

Lemma dec_ext_at b fl a s buf pos rest :
  has fl FLAG_EXTENDED = nonempty (a_ext a) -> enc_ext fl a = Ok s ->
  NoDup (map fst (a_ext a)) -> skipn pos buf = s ++ rest ->
  dec_ext b false fl buf pos = Ok (a_ext a, (pos + length s)%nat).
Proof.
  intros Hf He Hnd Hs. unfold enc_ext, dec_ext in *. rewrite Hf in *.
  destruct (a_ext a) as [|kv l] eqn:El; cbn [nonempty] in *.
  - injection He as <-. rewrite Nat.add_0_r. reflexivity.
  - rewrite <- El in *. clear El kv l.
    apply bind_ok in He as (c & Ec & He). apply bind_ok in He as (e & Ee & He). injection He as <-.
    rewrite <- app_assoc in Hs.
    rewrite (get_int_at buf pos _ c _ Ec Hs). apply skipn_past in Hs.
    pose proof (enc_pairs_len8 _ _ Ee) as Hl8.
    pose proof (f_equal (@length Z) Hs) as Hlen. rewrite skipn_length, app_length in Hlen.
    (* the guard passes: 8 bytes per pair are there; and the fuel is the pair count *)
    rewrite Hs, app_length.
    replace (_ >? _) with false by (symmetry; rewrite Z.gtb_ltb; apply Z.ltb_ge, Z.div_le_lower_bound; lia).
    rewrite andb_false_r.
    unfold ext_fuel. rewrite Z.min_l, Nat2Z.id by lia.
    rewrite (ext_loop_at (a_ext a) [] buf _ e rest Ee Hs Hnd), app_length, Nat.add_assoc.
    reflexivity.
Qed.

Lemma attr_roundtrip_at a bs buf pos rest :
  NoDup (map fst (a_ext a)) -> pack a = Ok bs -> skipn pos buf = bs ++ rest ->
  unpack buf pos = Ok (flags_of a, normalize a, (pos + length bs)%nat).
Proof.
  intros Hnd Hp Hs. unfold pack, pack_with in Hp.
  apply bind_ok in Hp as (h & Eh & Hp). apply bind_ok in Hp as (s1 & E1 & Hp).
  apply bind_ok in Hp as (s2 & E2 & Hp). apply bind_ok in Hp as (s3 & E3 & Hp).
  apply bind_ok in Hp as (s4 & E4 & Hp). apply bind_ok in Hp as (s5 & E5 & Hp).
  injection Hp as <-. rewrite <- !app_assoc in Hs.
  destruct (flags_has a) as (F1 & F2 & F3 & F4 & F5).
  unfold unpack, unpack_gen.
  rewrite (get_int_at _ _ _ _ _ Eh Hs). apply skipn_past in Hs.
  rewrite (dec_size_at _ _ _ _ _ _ F1 E1 Hs). apply skipn_past in Hs.
  rewrite (dec_pair_at opt_u32 _ _ _ _ _ _ _ _ (fun v => eq_refl) F2 E2 Hs). apply skipn_past in Hs.
  rewrite (dec_mode_at _ _ _ _ _ _ F3 E3 Hs). apply skipn_past in Hs.
  rewrite (dec_pair_at opt_time _ _ _ _ _ _ _ _ (fun v => eq_refl) F4 E4 Hs). apply skipn_past in Hs.
  rewrite (dec_ext_at G_COUNT_BOUNDED _ _ _ _ _ _ F5 E5 Hnd Hs).
  unfold normalize. rewrite !app_length, !Nat.add_assoc. reflexivity.
Qed.

Lemma roundtrip a bs rest :
  NoDup (map fst (a_ext a)) -> pack a = Ok bs ->
  unpack (bs ++ rest) 0 = Ok (flags_of a, normalize a, length bs).
Proof. intros Hnd Hp. exact (attr_roundtrip_at a bs (bs ++ rest) 0 rest Hnd Hp eq_refl). Qed.

(* what normalize does to uid/gid and to atime/mtime *)
Lemma pair_norm (o1 o2 : option Z) :
  let b := is_some o1 && is_some o2 in
  (o1 = None \/ o2 = None -> (if b then o1 else None) = None /\ (if b then o2 else None) = None) /\
  (o1 <> None -> o2 <> None -> (if b then o1 else None) = o1 /\ (if b then o2 else None) = o2).
Proof. destruct o1, o2; cbn; intuition congruence. Qed.

Lemma normalize_paired a : paired a = true -> normalize a = a.
Proof.
  destruct a as [sz u g md at_ mt ex]. unfold paired, normalize. cbn.
  destruct u, g, at_, mt; cbn; intros H; try discriminate; reflexivity.
Qed.

Definition u32_ok (o : option Z) : bool := match o with Some v => (0 <=? v) && (v <? 2 ^ 32) | None => true end.
Definition u64_ok (o : option Z) : bool := match o with Some v => (0 <=? v) && (v <? 2 ^ 64) | None => true end.

(* the values that _pack writes fit their wire widths: then it succeeds (pack_total) *)
Definition in_range (a : attrs) : bool :=
  let n := normalize a in
  u64_ok (a_size n) && u32_ok (a_uid n) && u32_ok (a_gid n) && u32_ok (a_mode n) &&
  u32_ok (a_atime n) && u32_ok (a_mtime n) &&
  (Z.of_nat (length (a_ext a)) <? 2 ^ 32) &&
  forallb (fun kv => (Z.of_nat (length (fst kv)) <? 2 ^ 32) && (Z.of_nat (length (snd kv)) <? 2 ^ 32)) (a_ext a).

Lemma enc_size_total fl a :
  has fl FLAG_SIZE = is_some (a_size a) -> u64_ok (a_size a) = true -> exists s, enc_size fl a = Ok s.
Proof.
  intros Hf H. unfold enc_size. rewrite Hf.
  destruct (a_size a) as [v|]; cbn [is_some opt_u64]; [rewrite (pack_u64_total v H)|]; eauto.
Qed.

Lemma enc_mode_total fl a :
  has fl FLAG_PERMISSIONS = is_some (a_mode a) -> u32_ok (a_mode a) = true -> exists s, enc_mode fl a = Ok s.
Proof.
  intros Hf H. unfold enc_mode. rewrite Hf.
  destruct (a_mode a) as [v|]; cbn [is_some opt_u32]; [rewrite (pack_u32_total v H)|]; eauto.
Qed.

Lemma enc_pair_total (enc : option Z -> result (list Z)) o1 o2 :
  (forall v, enc (Some v) = pack_u32 v) ->
  u32_ok (if is_some o1 && is_some o2 then o1 else None) = true ->
  u32_ok (if is_some o1 && is_some o2 then o2 else None) = true ->
  exists s, (if is_some o1 && is_some o2
             then bind (enc o1) (fun x => bind (enc o2) (fun y => Ok (x ++ y)))
             else Ok []) = Ok s.
Proof.
  intros Henc H1 H2. destruct o1 as [u|], o2 as [g|]; cbn [is_some andb] in *; eauto.
  rewrite !Henc, (pack_u32_total u H1), (pack_u32_total g H2). cbn [bind]. eauto.
Qed.

Lemma enc_pairs_total l :
  forallb (fun kv => (Z.of_nat (length (fst kv)) <? 2 ^ 32) && (Z.of_nat (length (snd kv)) <? 2 ^ 32)) l = true ->
  exists e, enc_pairs l = Ok e.
Proof.
  induction l as [|[k v] r IH]; intros H; [eexists; reflexivity|].
  cbn [forallb fst snd] in H. apply andb_true_iff in H as [Hkv Hr].
  apply andb_true_iff in Hkv as [Hk Hv]. apply Z.ltb_lt in Hk, Hv.
  destruct (IH Hr) as [z Ez]. cbn [enc_pairs].
  rewrite (add_string_total k Hk), (add_string_total v Hv), Ez. cbn [bind]. eauto.
Qed.

Lemma enc_ext_total fl a :
  Z.of_nat (length (a_ext a)) <? 2 ^ 32 = true ->
  forallb (fun kv => (Z.of_nat (length (fst kv)) <? 2 ^ 32) && (Z.of_nat (length (snd kv)) <? 2 ^ 32)) (a_ext a) = true ->
  exists s, enc_ext fl a = Ok s.
Proof.
  intros Hc Hp. unfold enc_ext. destruct (has fl FLAG_EXTENDED); [|eauto].
  destruct (enc_pairs_total _ Hp) as [e ->].
  rewrite pack_u32_total by (rewrite Hc, andb_true_r; apply Z.leb_le; lia). cbn [bind]. eauto.
Qed.

Lemma pack_total a : in_range a = true -> exists bs, pack a = Ok bs.
Proof.
  unfold in_range. cbv zeta. rewrite !andb_true_iff.
  intros [[[[[[[Hsz Hu] Hg] Hm] Hat] Hmt] Hc] Hp].
  destruct (flags_has a) as (F1 & F2 & F3 & F4 & F5).
  unfold pack, pack_with. rewrite (pack_u32_total (flags_of a) (flags_b_u32 _ _ _ _ _)). cbn [bind].
  destruct (enc_size_total _ a F1 Hsz) as [s1 ->]. cbn [bind].
  unfold enc_ug. rewrite F2.
  destruct (enc_pair_total opt_u32 _ _ (fun v => eq_refl) Hu Hg) as [s2 ->]. cbn [bind].
  destruct (enc_mode_total _ a F3 Hm) as [s3 ->]. cbn [bind].
  unfold enc_times. rewrite F4.
  destruct (enc_pair_total opt_time _ _ (fun v => eq_refl) Hat Hmt) as [s4 ->]. cbn [bind].
  destruct (enc_ext_total (flags_of a) a Hc Hp) as [s5 ->]. cbn [bind]. eauto.
Qed.
