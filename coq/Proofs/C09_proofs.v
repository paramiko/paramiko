(* C09 -- lemmas over Model/C09.v.
   Case lemmas say what step / handle (the paths of `handled`) / local / session do to the state, always
   as a `set_ctl` / `set_in` / `set_out` of the state they were given, so that a proof reads single fields
   off by computation.  On them rest: the invariant Inv of the initial exchange (something is always
   expected, all of it kex messages, the inbound counter has not wrapped); the stamps (epoch, sequence
   number) of a strict sender (stamp_ok, kept by the sender's invariant IS) and the receiver that follows
   them when the MAC binds (the receiver's invariant IR); the latching of the strict flag. *)
From Coq Require Import ZArith List Bool Lia.
From PV Require Import Bytes ListFacts C09_gen C09.
Import ListNotations.
Open Scope Z_scope.

Lemma mem_forallb t l f : mem t l = true -> forallb f l = true -> f t = true.
Proof.
  intros Hm%(existsb_eqb_In Z.eqb_eq) Hf. rewrite forallb_forall in Hf. auto.
Qed.

Lemma set_out_same st : set_out st (seq_out st) (ep_out st) (g_out st) = st.
Proof. destruct st; reflexivity. Qed.

Lemma set_expected_same st : set_expected st (expected st) = st.
Proof. destruct st; reflexivity. Qed.

Lemma send1_out_only c st t : exists s e g, fst (send1 c st t) = set_out st s e g.
Proof. unfold send1. destruct (t =? MSG_NEWKEYS); simpl; eauto. Qed.

Lemma emit_out_only c ts : forall st st' ps,
  emit c st ts = (st', ps) -> exists s e g, st' = set_out st s e g.
Proof.
  induction ts as [|t r IH]; intros st st' ps H; simpl in H.
  - injection H as <- _. exists (seq_out st), (ep_out st), (g_out st). symmetry. apply set_out_same.
  - destruct (send1_out_only c st t) as (s1 & e1 & g1 & E1).
    destruct (send1 c st t) as [st1 p]. destruct (emit c st1 r) as [st2 ps2] eqn:E2.
    injection H as <- _. simpl in E1. subst st1.
    apply IH in E2 as (s & e & g & ->). exists s, e, g. reflexivity.
Qed.

Lemma emit_length c ts : forall st st' ps, emit c st ts = (st', ps) -> length ps = length ts.
Proof.
  induction ts as [|t r IH]; intros st st' ps H; simpl in H.
  - inversion H; reflexivity.
  - destruct (send1 c st t) as [st1 p]. destruct (emit c st1 r) as [st2 ps2] eqn:E2.
    inversion H; subst. simpl. f_equal. eapply IH; eauto.
Qed.

Lemma step_cases mac_ok c st p o st' outs :
  step mac_ok c st p = (o, st', outs) ->
  (readable mac_ok st p = false /\ (o, st', outs) = (AbortSSH, st, [])) \/
  (readable mac_ok st p = true /\ exists st1 sends,
     handle c (set_in st ((seq_in st + 1) mod SEQ_MOD) (ep_in st) (g_in st) (nrecv st + 1)) p (seq_in st)
       = (o, st1, sends) /\
     emit c st1 sends = (st', outs) /\ exists s e g, st' = set_out st1 s e g).
Proof.
  unfold step. destruct (readable mac_ok st p); simpl; [right | left; auto].
  destruct (handle c _ p (seq_in st)) as [[o1 st1] sends].
  destruct (emit c st1 sends) as [st2 outs2] eqn:Ee.
  injection H as <- <- <-. split; [reflexivity |]. exists st1, sends. eauto using emit_out_only.
Qed.

Lemma local_cases c st ts st' outs :
  local c st ts = (st', outs) ->
  exists ks, let st1 := set_ctl st (agreed st) (kdone st) (expected st) ks (k_set st) in
    emit c st1 ts = (st', outs) /\ exists s e g, st' = set_out st1 s e g.
Proof.
  unfold local. intro H. exists (mem MSG_KEXINIT ts || kexinit_sent st). cbv zeta.
  replace (set_ctl st _ _ _ _ _) with (if mem MSG_KEXINIT ts
    then set_ctl st (agreed st) (kdone st) (expected st) true (k_set st) else st)
    by (destruct (mem MSG_KEXINIT ts), st; reflexivity).
  split; [exact H | eapply emit_out_only, H].
Qed.

Lemma session_cases mac_ok c ins o st outs :
  session mac_ok c ins = (o, st, outs) ->
  exists st0 outs0 outs1,
    emit c peer0 [MSG_KEXINIT] = (st0, outs0) /\ (exists s e g, st0 = set_out peer0 s e g) /\
    peer_run mac_ok c st0 ins = (o, st, outs1) /\ outs = outs0 ++ outs1.
Proof.
  unfold session, start. destruct (emit c peer0 [MSG_KEXINIT]) as [st0 outs0] eqn:Es.
  destruct (peer_run mac_ok c st0 ins) as [[o1 st1] outs1] eqn:Er. intros [= <- <- <-].
  exists st0, outs0, outs1. split; [reflexivity |]. split; [eapply emit_out_only, Es | auto].
Qed.

Lemma negotiate_cases c st p s o st1 sends :
  negotiate c st p s = (o, st1, sends) ->
  exists ex,
    st1 = set_ctl st (if p_marker p =? 0 then agreed st else (p_marker p =? 1) && c_adv c)
                  (kdone st) ex true (k_set st) /\
    (o = Continue -> ex = snd (kex_start c)).
Proof.
  unfold negotiate. set (ag := if p_marker p =? 0 then _ else _).
  destruct (ag && negb (kdone st) && negb (s =? 0)).
  { intros [= <- <- _]. exists (expected st). split; [reflexivity | discriminate]. }
  destruct (negb (p_ok p)).
  { intros [= <- <- _]. exists (expected st). split; [reflexivity | discriminate]. }
  destruct (kex_start c) as [sd ex]. intros [= <- <- _]. exists ex. split; reflexivity.
Qed.

Lemma parse_newkeys_cases st o st1 sends :
  parse_newkeys st = (o, st1, sends) ->
  (o = AbortOther /\ st1 = st) \/
  (o = Continue /\
   st1 = set_ctl (set_in st (if agreed st then 0 else seq_in st) (ep_in st + 1) (g_in st && agreed st) (nrecv st))
                 (agreed st) true (expected st) false false).
Proof. unfold parse_newkeys. destruct (negb (k_set st)); intros [= <- <- _]; auto. Qed.

(* what run()'s loop body does with a packet, one constructor per path *)
Inductive handled (c : cfg) (st : peer) (p : pkt) (o : outcome) : peer -> Prop :=
| by_run :       (* run() itself: IGNORE, DEBUG, DISCONNECT, a type that is not the expected one *)
    (o = Continue -> p_type p = MSG_IGNORE \/ p_type p = MSG_DEBUG) ->
    handled c st p o st
| by_kex ex k :  (* the kex engine's parse_next *)
    (KEX_LO <=? p_type p) && (p_type p <=? KEX_HI) = true ->
    (o = Continue -> exists sd act, kex_next c (p_type p) (p_ok p) = Some (sd, ex, act)) ->
    handled c st p o (set_ctl st (agreed st) (kdone st) ex (kexinit_sent st) k)
| by_kexinit ex :  (* _parse_kex_init *)
    p_type p = MSG_KEXINIT -> (o = Continue -> ex = snd (kex_start c)) ->
    handled c st p o (set_ctl st (if p_marker p =? 0 then agreed st else (p_marker p =? 1) && c_adv c)
                              (kdone st) ex true (k_set st))
| by_newkeys_early :  (* _parse_newkeys before the kex engine has finished *)
    p_type p = MSG_NEWKEYS -> o = AbortOther ->
    handled c st p o (set_expected st [])
| by_newkeys :
    p_type p = MSG_NEWKEYS -> o = Continue ->
    handled c st p o
      (set_ctl (set_in st (if agreed st then 0 else seq_in st) (ep_in st + 1) (g_in st && agreed st) (nrecv st))
               (agreed st) true [] false false)
| by_other :     (* any other handler: the expectation, if there was one, has been met and is cleared *)
    p_type p <> MSG_KEXINIT -> p_type p <> MSG_NEWKEYS ->
    (expected st = [] \/
     mem (p_type p) (expected st) = true /\ (KEX_LO <=? p_type p) && (p_type p <=? KEX_HI) = false) ->
    handled c st p o (set_expected st []).

(* the handlers are only ever entered with nothing expected *)
Lemma handlers_cases c st p s o st1 sends :
  handlers c (set_expected st []) p s = (o, st1, sends) ->
  (expected st = [] \/
   mem (p_type p) (expected st) = true /\ (KEX_LO <=? p_type p) && (p_type p <=? KEX_HI) = false) ->
  handled c st p o st1.
Proof.
  unfold handlers. intros H Hmet.
  destruct (Z.eqb_spec (p_type p) MSG_KEXINIT) as [T | T1].
  { apply negotiate_cases in H as (ex & -> & Hex). exact (by_kexinit c st p o ex T Hex). }
  destruct (Z.eqb_spec (p_type p) MSG_NEWKEYS) as [T | T2].
  { apply parse_newkeys_cases in H as [(Ho & ->) | (Ho & ->)].
    - exact (by_newkeys_early c st p o T Ho).
    - exact (by_newkeys c st p o T Ho). }
  replace st1 with (set_expected st []); [exact (by_other c st p o T1 T2 Hmet) |].
  destruct (p_type p =? MSG_EXT_INFO); [congruence |].
  destruct (p_type p =? MSG_UNIMPLEMENTED); [congruence |].
  destruct (c_app c (p_type p)); congruence.
Qed.

Lemma handle_cases c st p s o st1 sends :
  handle c st p s = (o, st1, sends) -> handled c st p o st1.
Proof.
  intro H. unfold handle in H.
  destruct (Z.eqb_spec (p_type p) MSG_IGNORE).
  { injection H as _ <- _. apply by_run. auto. }
  destruct (Z.eqb_spec (p_type p) MSG_DISCONNECT).
  { injection H as <- <- _. apply by_run. discriminate. }
  destruct (Z.eqb_spec (p_type p) MSG_DEBUG).
  { injection H as _ <- _. apply by_run. auto. }
  destruct (expected st) as [|e0 er] eqn:Ee; cbn [is_nil] in H.
  { rewrite <- (set_expected_same st), Ee in H. apply (handlers_cases _ _ _ _ _ _ _ H). auto. }
  destruct (mem (p_type p) (e0 :: er)) eqn:Em; cbn [negb] in H.
  2:{ injection H as Ho <- _. apply by_run. destruct (agreed st); congruence. }
  destruct ((KEX_LO <=? p_type p) && (p_type p <=? KEX_HI)) eqn:Er.
  2:{ apply (handlers_cases _ _ _ _ _ _ _ H). rewrite Ee. auto. }
  destruct (kex_next c (p_type p) (p_ok p)) as [[[sd ex] act]|] eqn:Ek; injection H as <- <- _.
  - refine (by_kex c st p _ ex (k_set st || act) Er _). eauto.
  - refine (by_kex c st p _ [] (k_set st) Er _). discriminate.
Qed.

(* the last input may end the loop, so the invariant may speak of the outcome *)
Lemma peer_run_preserves mac_ok c (P : outcome -> peer -> list pkt -> Prop) ins :
  forall st o st' outs pre,
  (forall st i o st' outs pre,
     In i ins -> P Continue st pre -> do_input mac_ok c st i = (o, st', outs) -> P o st' (pre ++ outs)) ->
  P Continue st pre -> peer_run mac_ok c st ins = (o, st', outs) -> P o st' (pre ++ outs).
Proof.
  induction ins as [|i r IH]; intros st o st' outs pre Hstep HP H; simpl in H.
  - injection H as <- <- <-. rewrite app_nil_r. exact HP.
  - destruct (do_input mac_ok c st i) as [[o1 st1] outs1] eqn:Ed.
    apply (Hstep _ _ _ _ _ _ (or_introl eq_refl) HP) in Ed.
    destruct o1; try (injection H as <- <- <-; exact Ed).
    destruct (peer_run mac_ok c st1 r) as [[o2 st2] outs2] eqn:Er. injection H as <- <- <-.
    rewrite app_assoc.
    apply (IH _ _ _ _ _ (fun st i o st' outs pre Hi => Hstep st i o st' outs pre (or_intror Hi)) Ed Er).
Qed.

Lemma handle_strict_abort c st p s :
  agreed st = true -> kdone st = false -> expected st <> [] ->
  mem (p_type p) (expected st) = false ->
  let o := fst (fst (handle c st p s)) in
  o = AbortMOE \/ (p_type p = MSG_DISCONNECT /\ o = Closed).
Proof.
  intros Ha Hd He Hm. unfold handle, enforce_at, enforce. rewrite Ha, Hd, Hm.
  change (mem MSG_IGNORE g_enforce_sites) with true. change (mem MSG_DEBUG g_enforce_sites) with true.
  simpl.
  destruct (p_type p =? MSG_IGNORE); [left; reflexivity|].
  destruct (Z.eqb_spec (p_type p) MSG_DISCONNECT); [right; split; [assumption | reflexivity]|].
  destruct (p_type p =? MSG_DEBUG); [left; reflexivity|].
  destruct (expected st); [congruence|]. left; reflexivity.
Qed.

Lemma step_strict_abort mac_ok c st p :
  agreed st = true -> kdone st = false -> expected st <> [] ->
  mem (p_type p) (expected st) = false ->
  let o := fst (fst (step mac_ok c st p)) in
  o = AbortMOE \/ (p_type p = MSG_DISCONNECT /\ o = Closed) \/
  (readable mac_ok st p = false /\ o = AbortSSH).
Proof.
  intros Ha Hd He Hm. unfold step.
  destruct (readable mac_ok st p); simpl; [| auto].
  set (st0 := set_in st _ _ _ _).
  pose proof (handle_strict_abort c st0 p (seq_in st) Ha Hd He Hm) as HS.
  destruct (handle c st0 p (seq_in st)) as [[o st1] sends].
  destruct (emit c st1 sends). simpl in *. tauto.
Qed.

Definition Inv (st : peer) : Prop :=
  kdone st = false ->
  expected st <> [] /\ forallb kexmsg (expected st) = true /\
  seq_in st = nrecv st /\ 0 <= nrecv st < SEQ_MOD.

Lemma kex_start_ok c : snd (kex_start c) <> [] /\ forallb kexmsg (snd (kex_start c)) = true.
Proof.
  unfold kex_start, fam, is_server.
  destruct (c_role c), (c_kex c); cbv; split; (discriminate || reflexivity).
Qed.

Definition next_row_ok (r : Z * Z * Z * list Z * list Z * bool) : bool :=
  match r with (_, _, _, _, ex, act) => act || (negb (is_nil ex) && forallb kexmsg ex) end.

Lemma gen_next_rows_ok : forallb next_row_ok g_kex_next = true.
Proof. vm_compute. reflexivity. Qed.

Lemma gen_activate_expect_ok : g_activate_expect <> [] /\ forallb kexmsg g_activate_expect = true.
Proof. split; [discriminate|vm_compute; reflexivity]. Qed.

Lemma find_next_in l f srv t snt ex act :
  find_next l f srv t = Some (snt, ex, act) ->
  exists f' role t', In (f', role, t', snt, ex, act) l.
Proof.
  induction l as [|[[[[[f' role] t'] snt'] ex'] act'] l IH]; simpl; [discriminate|].
  destruct ((f' =? f) && (t' =? t) && role_ok role srv).
  - intro H. inversion H; subst. exists f', role, t'. left. reflexivity.
  - intro H. destruct (IH H) as (a & b & d & Hin). exists a, b, d. right. exact Hin.
Qed.

Lemma kex_next_ok c t ok sends ex act :
  kex_next c t ok = Some (sends, ex, act) -> ex <> [] /\ forallb kexmsg ex = true.
Proof.
  unfold kex_next. destruct (negb ok); [discriminate|].
  destruct (find_next g_kex_next (fam c) (is_server c) t) as [[[snt ex0] act0]|] eqn:F; [|discriminate].
  apply find_next_in in F. destruct F as (f' & role & t' & Hin).
  pose proof gen_next_rows_ok as R. rewrite forallb_forall in R. specialize (R _ Hin). simpl in R.
  destruct act0; intro H; inversion H; subst.
  - apply gen_activate_expect_ok.
  - simpl in R. apply andb_true_iff in R. destruct R as [N A]. split; auto.
    destruct ex; discriminate.
Qed.

Lemma universe_outside_range t :
  kexmsg t = true -> (KEX_LO <=? t) && (t <=? KEX_HI) = false -> t = MSG_KEXINIT \/ t = MSG_NEWKEYS.
Proof.
  unfold kexmsg, mem, g_expect_universe, KEX_LO, KEX_HI, MSG_KEXINIT, MSG_NEWKEYS.
  cbn [existsb]. lia.
Qed.

Lemma handle_inv c st p s st1 sends :
  Inv st -> handle c st p s = (Continue, st1, sends) -> kdone st1 = false ->
  kdone st = false /\ expected st1 <> [] /\ forallb kexmsg (expected st1) = true /\
  seq_in st1 = seq_in st /\ nrecv st1 = nrecv st.
Proof.
  intros HI H%handle_cases Hd1.
  destruct H as [_ | ex k _ Hk | ex _ Hex | _ [=] | _ _ | T1 T2 Hmet].
  - destruct (HI Hd1) as (A & B & _). auto 6.
  - destruct (Hk eq_refl) as (sd & act & Hk'). apply kex_next_ok in Hk' as [A B]. auto 6.
  - rewrite (Hex eq_refl). destruct (kex_start_ok c). auto 6.
  - (* NEWKEYS ends the initial exchange *) discriminate Hd1.
  - (* an expectation was met by a type that neither the kex engine nor _parse_kex_init nor
       _parse_newkeys takes: there is none in the universe *)
    destruct (HI Hd1) as (A & B & _). destruct Hmet as [E | (Em & Er)]; [contradiction |].
    destruct (universe_outside_range _ (mem_forallb _ _ _ Em B) Er); contradiction.
Qed.

Lemma step_inv mac_ok c st p st' outs :
  Inv st -> step mac_ok c st p = (Continue, st', outs) -> Inv st'.
Proof.
  intros HI H.
  destruct (step_cases _ _ _ _ _ _ _ H) as [(_ & [=]) | (R & st1 & sends & Hh & _ & s' & e' & g' & ->)].
  assert (HI0 : Inv (set_in st ((seq_in st + 1) mod SEQ_MOD) (ep_in st) (g_in st) (nrecv st + 1))).
  { (* the roll-over check of read_message keeps the counter from wrapping *)
    intro K. simpl in K. destruct (HI K) as (A & B & C & D). simpl.
    unfold readable in R. rewrite K in R. cbn [negb] in R.
    apply andb_true_iff in R as [_ R]. rewrite andb_true_r, negb_true_iff, Z.eqb_neq in R.
    assert (nrecv st + 1 <> SEQ_MOD) by (intros E; rewrite C, E, Z_mod_same_full in R; auto).
    rewrite C, Z.mod_small by lia. repeat split; auto; lia. }
  intro Hd.
  destruct (handle_inv _ _ _ _ _ _ HI0 Hh Hd) as (K & A & B & C & D).
  destruct (HI0 K) as (_ & _ & C0 & D0). simpl in *. rewrite C, D. auto.
Qed.

Lemma local_inv c st ts st' outs : Inv st -> local c st ts = (st', outs) -> Inv st'.
Proof.
  intros HI H. apply local_cases in H as (ks & _ & s & e & g & ->). exact HI.
Qed.

Lemma session_inv mac_ok c ins st outs :
  session mac_ok c ins = (Continue, st, outs) -> Inv st.
Proof.
  intros (st0 & outs0 & outs1 & _ & (s & e & g & ->) & Er & _)%session_cases.
  refine (peer_run_preserves mac_ok c (fun o st _ => o = Continue -> Inv st) ins _ _ _ _ [] _ _ Er eq_refl).
  - intros st2 [p | ts] o st3 outs3 _ _ HI Hd ->; specialize (HI eq_refl); simpl in Hd.
    + eapply step_inv; eauto.
    + destruct (local c st2 ts) as [sl ol] eqn:El. injection Hd as <- _. eapply local_inv; eauto.
  - intros _ _. simpl. unfold SEQ_MOD.
    repeat split; (discriminate || lia || reflexivity).
Qed.

Lemma negotiate_not_first c st p s :
  kdone st = false -> c_adv c = true -> p_marker p = 1 -> s <> 0 ->
  fst (fst (negotiate c st p s)) = AbortMOE.
Proof.
  intros Hd Ha Hm Hs. unfold negotiate. rewrite Hm, Ha, Hd. simpl.
  destruct (Z.eqb_spec s 0); [contradiction | reflexivity].
Qed.

Lemma handle_kexinit c st p s :
  p_type p = MSG_KEXINIT ->
  handle c st p s =
  if is_nil (expected st) || mem MSG_KEXINIT (expected st)
  then negotiate c (set_expected st []) p s
  else (if agreed st then AbortMOE else AbortSSH, st, []).
Proof.
  intro T. unfold handle, handlers. rewrite T. destruct (expected st) as [|e0 er] eqn:E.
  - replace (set_expected st []) with st by (rewrite <- E; symmetry; apply set_expected_same).
    reflexivity.
  - destruct (mem MSG_KEXINIT (e0 :: er)); reflexivity.
Qed.

(* the sequence-number check of _parse_kex_init fires if the handler is reached at all *)
Lemma step_kexinit_not_first mac_ok c st p :
  Inv st -> kdone st = false -> nrecv st <> 0 -> c_adv c = true ->
  p_type p = MSG_KEXINIT -> p_marker p = 1 ->
  let o := fst (fst (step mac_ok c st p)) in
  o <> Continue /\
  (readable mac_ok st p = true -> expected st = [MSG_KEXINIT] -> o = AbortMOE).
Proof.
  intros HI Hd Hn Hadv Ht Hmk. destruct (HI Hd) as (_ & _ & C & _).
  unfold step. destruct (readable mac_ok st p); simpl; [| split; discriminate].
  set (st0 := set_in st _ _ _ _). rewrite (handle_kexinit c st0 p _ Ht).
  change (expected st0) with (expected st). change (agreed st0) with (agreed st).
  destruct (is_nil (expected st) || mem MSG_KEXINIT (expected st)) eqn:X.
  - pose proof (negotiate_not_first c (set_expected st0 []) p (seq_in st) Hd Hadv Hmk) as N.
    destruct (negotiate c _ p (seq_in st)) as [[o st1] sends]. simpl in N. rewrite N by congruence.
    destruct (emit c st1 sends). simpl. split; [discriminate | reflexivity].
  - simpl. split.
    + destruct (agreed st); discriminate.
    + intros _ Hex. rewrite Hex in X. discriminate.
Qed.

Lemma handle_in_effect c st p s st1 sends :
  handle c st p s = (Continue, st1, sends) ->
  if p_type p =? MSG_NEWKEYS
  then ep_in st1 = ep_in st + 1 /\ g_in st1 = (g_in st && agreed st) /\
       (agreed st = true -> seq_in st1 = 0)
  else ep_in st1 = ep_in st /\ seq_in st1 = seq_in st /\ g_in st1 = g_in st.
Proof.
  intros [T | ex k Hr _ | ex T _ | _ [=] | T _ | _ T _]%handle_cases.
  - destruct (T eq_refl) as [-> | ->]; simpl; auto.
  - destruct (Z.eqb_spec (p_type p) MSG_NEWKEYS) as [T | _]; [rewrite T in Hr; discriminate | auto].
  - rewrite T. simpl. auto.
  - rewrite T. simpl. repeat split. intros ->. reflexivity.
  - destruct (Z.eqb_spec (p_type p) MSG_NEWKEYS); [contradiction | auto].
Qed.

Lemma seq_reset_in mac_ok c st p st' outs :
  step mac_ok c st p = (Continue, st', outs) ->
  p_type p = MSG_NEWKEYS -> agreed st = true ->
  seq_in st' = 0 /\ ep_in st' = ep_in st + 1.
Proof.
  intros H T Ha.
  destruct (step_cases _ _ _ _ _ _ _ H) as [(_ & [=]) | (_ & st1 & sends & Hh & _ & s' & e' & g' & ->)].
  apply handle_in_effect in Hh. rewrite T in Hh. destruct Hh as (A & _ & B). simpl. auto.
Qed.

Lemma seq_reset_out c st :
  agreed st = true ->
  let '(st', q) := send1 c st MSG_NEWKEYS in
  p_type q = MSG_NEWKEYS /\ p_mseq q = seq_out st /\ seq_out st' = 0 /\ ep_out st' = ep_out st + 1.
Proof. intro Ha. unfold send1. simpl. rewrite Ha. simpl. auto. Qed.

Lemma send1_pkt c st t : snd (send1 c st t) = mk_out c st t.
Proof. unfold send1. destruct (t =? MSG_NEWKEYS); reflexivity. Qed.

Lemma emit_next_seq c ts st st' ps :
  emit c st ts = (st', ps) ->
  match ps with r :: _ => p_mseq r | [] => seq_out st' end = seq_out st.
Proof.
  destruct ts as [|t r]; simpl; [intros [= <- <-]; reflexivity |].
  pose proof (send1_pkt c st t) as Ep.
  destruct (send1 c st t) as [st1 p]. destruct (emit c st1 r) as [st2 ps2].
  intros [= _ <-]. simpl in Ep. rewrite Ep. reflexivity.
Qed.

Lemma emit_newkeys_next c ts : forall st st' ps i q,
  agreed st = true -> emit c st ts = (st', ps) ->
  nth_error ps i = Some q -> p_type q = MSG_NEWKEYS ->
  match nth_error ps (S i) with Some r => p_mseq r = 0 | None => seq_out st' = 0 end.
Proof.
  induction ts as [|t r IH]; intros st st' ps i q Ha H Hn Hq; simpl in H.
  - injection H as _ <-. destruct i; discriminate.
  - pose proof (send1_pkt c st t) as Ep. destruct (send1_out_only c st t) as (s1 & e1 & g1 & E1).
    destruct (send1 c st t) as [st1 p] eqn:E. destruct (emit c st1 r) as [st2 ps2] eqn:E2.
    injection H as <- <-. simpl in Ep, E1. subst p.
    destruct i as [|i]; simpl in Hn |- *.
    + injection Hn as <-. simpl in Hq. subst t.
      pose proof (seq_reset_out c st Ha) as R. rewrite E in R. destruct R as (_ & _ & R0 & _).
      apply emit_next_seq in E2. destruct ps2; simpl; congruence.
    + subst st1. apply (IH (set_out st s1 e1 g1) _ _ i q Ha E2 Hn Hq).
Qed.

Lemma seq_reset_step mac_ok c st p o st' outs i q :
  step mac_ok c st p = (o, st', outs) -> agreed st' = true ->
  nth_error outs i = Some q -> p_type q = MSG_NEWKEYS ->
  match nth_error outs (S i) with Some r => p_mseq r = 0 | None => seq_out st' = 0 end.
Proof.
  intros H Ha Hn Hq.
  destruct (step_cases _ _ _ _ _ _ _ H) as [(_ & [= _ _ ->]) | (_ & st1 & sends & _ & He & s' & e' & g' & ->)].
  { destruct i; discriminate. }
  apply (emit_newkeys_next c sends st1 _ outs i q Ha He Hn Hq).
Qed.

(* the epoch and the sequence number a strict sender is at after sending p from (e, s) *)
Definition ep_after (e : Z) (p : pkt) : Z := if p_type p =? MSG_NEWKEYS then e + 1 else e.
Definition seq_after (s : Z) (p : pkt) : Z := if p_type p =? MSG_NEWKEYS then 0 else s + 1.

(* the stamps a strict sender puts on its packets *)
Fixpoint stamp_ok (e s : Z) (l : list pkt) : Prop :=
  match l with
  | [] => True
  | p :: r => p_epoch p = e /\ p_mseq p = s /\ stamp_ok (ep_after e p) (seq_after s p) r
  end.
Fixpoint walk (e s : Z) (l : list pkt) : Z * Z :=
  match l with
  | [] => (e, s)
  | p :: r => walk (ep_after e p) (seq_after s p) r
  end.

Definition lexlt (e s e' s' : Z) : Prop := e < e' \/ (e = e' /\ s < s').
Definition lexle (e s e' s' : Z) : Prop := e < e' \/ (e = e' /\ s <= s').

Lemma walk_app a : forall e s b,
  walk e s (a ++ b) = walk (fst (walk e s a)) (snd (walk e s a)) b.
Proof. induction a as [|p a IH]; intros; simpl; auto. Qed.

Lemma stamp_ok_app a : forall e s b,
  stamp_ok e s (a ++ b) <-> stamp_ok e s a /\ stamp_ok (fst (walk e s a)) (snd (walk e s a)) b.
Proof.
  induction a as [|p a IH]; intros e s b; simpl.
  - tauto.
  - rewrite IH. tauto.
Qed.

Lemma stamp_after_lt e s p : 0 <= s -> lexlt e s (ep_after e p) (seq_after s p) /\ 0 <= seq_after s p.
Proof. unfold lexlt, ep_after, seq_after. destruct (p_type p =? MSG_NEWKEYS); lia. Qed.

Lemma walk_mono l : forall e s, 0 <= s ->
  lexle e s (fst (walk e s l)) (snd (walk e s l)) /\ 0 <= snd (walk e s l).
Proof.
  induction l as [|p l IH]; intros e s Hs; simpl.
  - unfold lexle. lia.
  - destruct (stamp_after_lt e s p Hs) as [A B]. destruct (IH (ep_after e p) (seq_after s p) B) as [C D].
    split; auto. unfold lexlt, lexle in *. lia.
Qed.

Lemma stamp_range l : forall e s, stamp_ok e s l -> 0 <= s ->
  forall r, In r l ->
    lexle e s (p_epoch r) (p_mseq r) /\
    lexlt (p_epoch r) (p_mseq r) (fst (walk e s l)) (snd (walk e s l)) /\
    p_mseq r < s + Z.of_nat (length l).
Proof.
  induction l as [|p l IH]; intros e s H Hs r Hin; [destruct Hin |].
  cbn [stamp_ok walk length In] in *. destruct H as (He & Hq & Hr).
  destruct (stamp_after_lt e s p Hs) as [A B]. destruct (walk_mono l (ep_after e p) (seq_after s p) B) as [C _].
  destruct Hin as [<- | Hin].
  - unfold lexlt, lexle in *. lia.
  - destruct (IH _ _ Hr B r Hin) as (I1 & I2 & I3). split; [| split; [exact I2 |]].
    + unfold lexlt, lexle in *. lia.
    + unfold seq_after in I3. destruct (p_type p =? MSG_NEWKEYS); lia.
Qed.

Lemma stamp_next acc rest e s p :
  stamp_ok e s (acc ++ rest) -> 0 <= s -> In p (acc ++ rest) ->
  walk e s acc = (p_epoch p, p_mseq p) -> exists rest', rest = p :: rest'.
Proof.
  intros H Hs Hin W. apply stamp_ok_app in H as [Sacc Srest].
  destruct (walk_mono acc e s Hs) as [_ Wn]. rewrite W in Srest, Wn. simpl in Srest, Wn.
  apply in_app_or in Hin as [Hin | Hin].
  - destruct (stamp_range _ _ _ Sacc Hs p Hin) as (_ & L & _). rewrite W in L. unfold lexlt in L. simpl in L. lia.
  - destruct rest as [|r0 rest']; [destruct Hin |]. destruct Hin as [-> | Hin]; [eauto |].
    destruct Srest as (_ & _ & Sr). destruct (stamp_after_lt (p_epoch p) (p_mseq p) r0 Wn) as [A B].
    destruct (stamp_range _ _ _ Sr B p Hin) as (L & _). unfold lexlt, lexle in *. lia.
Qed.

Lemma stamp_epoch_ge l : forall e s, stamp_ok e s l -> forall r, In r l -> e <= p_epoch r.
Proof.
  induction l as [|p l IH]; intros e s H r Hin; simpl in *; [tauto|].
  destruct H as (He & _ & Hr). destruct Hin as [->|Hin]; [lia|].
  specialize (IH _ _ Hr r Hin). unfold ep_after in IH. destruct (p_type p =? MSG_NEWKEYS); lia.
Qed.

Lemma stamp_all_enc l : forall e s, stamp_ok e s l -> 1 <= e -> filter enc l = l.
Proof.
  induction l as [|p l IH]; intros e s H He; simpl in *; [reflexivity |].
  destruct H as (Hp & _ & Hr). unfold enc at 1. destruct (Z.eqb_spec (p_epoch p) 0); [lia |].
  simpl. f_equal. apply (IH _ _ Hr). unfold ep_after. destruct (p_type p =? MSG_NEWKEYS); lia.
Qed.

Lemma stamp_enc l : forall s, stamp_ok 0 s l -> stamp_ok 1 0 (filter enc l).
Proof.
  induction l as [|p l IH]; intros s H; simpl in *; [exact I|].
  destruct H as (He & _ & Hr). unfold enc at 1. rewrite He. simpl.
  unfold ep_after, seq_after in Hr. destruct (p_type p =? MSG_NEWKEYS).
  - rewrite (stamp_all_enc _ _ _ Hr); [exact Hr | lia].
  - apply (IH _ Hr).
Qed.

Lemma stamp_kth l : forall e s e' k p, stamp_ok e s l ->
  nth_error (filter (fun q => p_epoch q =? e') l) k = Some p ->
  p_mseq p = (if e =? e' then s else 0) + Z.of_nat k.
Proof.
  induction l as [|x l IH]; intros e s e' k p H Hn; simpl in *.
  { destruct k; discriminate. }
  destruct H as (He & Hs & Hr). rewrite He in Hn.
  pose proof (fun k => IH _ _ e' k p Hr) as IH'. unfold ep_after, seq_after in *.
  destruct (Z.eqb_spec e e') as [<- | Ne].
  - destruct k as [|k]; simpl in Hn; [injection Hn as <-; lia |].
    destruct (p_type x =? MSG_NEWKEYS).
    + (* the epoch is over: nothing later carries it *)
      apply nth_error_In, filter_In in Hn as [Hin Heq].
      pose proof (stamp_epoch_ge _ _ _ Hr p Hin). lia.
    + specialize (IH' k Hn). rewrite Z.eqb_refl in IH'. lia.
  - destruct (p_type x =? MSG_NEWKEYS); specialize (IH' k Hn);
      destruct (_ =? e') eqn:X in IH'; lia.
Qed.

Definition IS (st : peer) (outs : list pkt) : Prop :=
  Z.of_nat (length outs) < SEQ_MOD ->
  0 <= seq_out st <= Z.of_nat (length outs) /\
  (g_out st = true -> stamp_ok 0 0 outs /\ walk 0 0 outs = (ep_out st, seq_out st)).

Lemma send1_IS c st t st' q pre :
  IS st pre -> send1 c st t = (st', q) -> IS st' (pre ++ [q]).
Proof.
  intros HI H Hlen. rewrite app_length, Nat2Z.inj_add in *. simpl (Z.of_nat (length [q])) in *.
  destruct HI as (Hb & Hg); [lia |].
  assert (Hn : (seq_out st + 1) mod SEQ_MOD = seq_out st + 1) by (apply Z.mod_small; lia).
  assert (Hq : q = mk_out c st t) by (rewrite <- send1_pkt, H; reflexivity).
  assert (W : g_out st = true -> stamp_ok 0 0 (pre ++ [q]) /\
              walk 0 0 (pre ++ [q]) = (ep_after (ep_out st) q, seq_after (seq_out st) q)).
  { intro G. destruct (Hg G) as [S W]. rewrite stamp_ok_app, walk_app, W. subst q. simpl. auto. }
  unfold ep_after, seq_after in W. rewrite Hq in W at 3 4. simpl in W.
  unfold send1 in H. rewrite Hn in H.
  destruct (t =? MSG_NEWKEYS); injection H as <- _; simpl.
  - split; [destruct (agreed st); lia |]. intros [G ->]%andb_true_iff. auto.
  - split; [lia | exact W].
Qed.

Lemma emit_IS c ts : forall st st' ps pre,
  IS st pre -> emit c st ts = (st', ps) -> IS st' (pre ++ ps).
Proof.
  induction ts as [|t r IH]; intros st st' ps pre HI H; simpl in H.
  - injection H as <- <-. rewrite app_nil_r. exact HI.
  - destruct (send1 c st t) as [st1 q] eqn:E1. destruct (emit c st1 r) as [st2 ps2] eqn:E2.
    injection H as <- <-. change (q :: ps2) with ([q] ++ ps2). rewrite app_assoc.
    apply (IH _ _ _ _ (send1_IS _ _ _ _ _ _ HI E1) E2).
Qed.

Lemma handle_out_frame c st p s o st1 sends :
  handle c st p s = (o, st1, sends) ->
  seq_out st1 = seq_out st /\ ep_out st1 = ep_out st /\ g_out st1 = g_out st.
Proof.
  intros H%handle_cases. destruct H; auto.
Qed.

Lemma do_input_IS mac_ok c st i o st' outs pre :
  IS st pre -> do_input mac_ok c st i = (o, st', outs) -> IS st' (pre ++ outs).
Proof.
  intros HI H. destruct i as [p|ts]; simpl in H.
  - destruct (step_cases _ _ _ _ _ _ _ H) as [(_ & [= _ -> ->]) | (_ & st1 & sends & Hh & He & _)].
    { rewrite app_nil_r. exact HI. }
    apply handle_out_frame in Hh as (A & B & C). simpl in A, B, C.
    refine (emit_IS _ _ _ _ _ pre _ He). unfold IS. rewrite A, B, C. exact HI.
  - destruct (local c st ts) as [sl ol] eqn:El. injection H as _ -> ->.
    apply local_cases in El as (ks & El & _). refine (emit_IS _ _ _ _ _ pre _ El). exact HI.
Qed.

Lemma sender_stamps mac_ok c ins o st outs :
  session mac_ok c ins = (o, st, outs) ->
  Z.of_nat (length outs) < SEQ_MOD -> g_out st = true ->
  stamp_ok 0 0 outs.
Proof.
  intros (st0 & outs0 & outs1 & Es & _ & Er & ->)%session_cases Hl G.
  assert (I0 : IS peer0 []) by (intros _; simpl; split; [lia | split; [exact I | reflexivity]]).
  apply (emit_IS _ _ _ _ _ [] I0) in Es.
  refine (proj1 (proj2 (peer_run_preserves mac_ok c (fun _ => IS) ins _ _ _ _ _ _ Es Er Hl) G)).
  intros st1 i o1 st2 outs2 pre _. apply do_input_IS.
Qed.

Lemma sender_kth mac_ok c ins o st outs e k p :
  session mac_ok c ins = (o, st, outs) ->
  Z.of_nat (length outs) < SEQ_MOD -> g_out st = true ->
  nth_error (filter (fun q => p_epoch q =? e) outs) k = Some p -> p_mseq p = Z.of_nat k.
Proof.
  intros H Hl G Hn. pose proof (sender_stamps _ _ _ _ _ _ H Hl G) as S.
  rewrite (stamp_kth _ _ _ e k p S Hn). destruct (0 =? e); lia.
Qed.

Lemma step_in_stamp mac_ok c st p st' outs :
  step mac_ok c st p = (Continue, st', outs) -> g_in st' = true ->
  g_in st = true /\ accepts mac_ok st p = true /\
  ep_in st' = ep_after (ep_in st) p /\
  seq_in st' = if p_type p =? MSG_NEWKEYS then 0 else (seq_in st + 1) mod SEQ_MOD.
Proof.
  intros H G.
  destruct (step_cases _ _ _ _ _ _ _ H) as [(_ & [=]) | (R & st1 & sends & Hh & _ & s' & e' & g' & ->)].
  simpl in G |- *.
  apply andb_true_iff in R as [R _].
  apply handle_in_effect in Hh. unfold ep_after. destruct (p_type p =? MSG_NEWKEYS); simpl in Hh.
  - destruct Hh as (A & B & C). rewrite B in G. apply andb_true_iff in G as [G Ha]. auto.
  - destruct Hh as (A & B & C). rewrite C in G. auto.
Qed.

Lemma recvs_cons i r : recvs (i :: r) = recvs [i] ++ recvs r.
Proof. destruct i; reflexivity. Qed.

Section Receiver.
  Variable mac_ok : Z -> Z -> pkt -> bool.
  Hypothesis Hmac : mac_binds mac_ok.
  Variable E : list pkt.                       (* the sender's protected packets, in order *)
  Hypothesis HE : stamp_ok 1 0 E.
  Hypothesis HEl : Z.of_nat (length E) < SEQ_MOD.

  Definition IR (st : peer) (acc : list pkt) : Prop :=
    g_in st = true ->
    (ep_in st = 0 /\ acc = []) \/
    (1 <= ep_in st /\ (exists rest, E = acc ++ rest) /\ walk 1 0 acc = (ep_in st, seq_in st)).

  Lemma step_IR c st p st' outs acc :
    IR st acc -> step mac_ok c st p = (Continue, st', outs) ->
    (enc p = true -> In p E) ->
    IR st' (acc ++ (if enc p then [p] else [])).
  Proof.
    intros HI H Hin G. destruct (step_in_stamp _ _ _ _ _ _ H G) as (G0 & Racc & Ep & Sq).
    unfold accepts in Racc. rewrite Ep, Sq. unfold ep_after.
    destruct (HI G0) as [(E0 & ->) | (E1 & (rest & Hrest) & W)].
    - (* no inbound cipher yet: only an unprotected packet is read *)
      rewrite E0 in *. simpl in Racc. unfold enc. rewrite Racc. simpl.
      destruct (p_type p =? MSG_NEWKEYS); [right | left; auto].
      split; [lia |]. split; [exists E; reflexivity | reflexivity].
    - (* inbound cipher on: the MAC verified under (ep_in, seq_in), which is the stamp reached
         after acc, so p is the packet of E that follows acc *)
      destruct (Z.eqb_spec (ep_in st) 0); [lia |].
      destruct (Hmac (ep_in st) (seq_in st) p) as [Pe Ps]; [lia | exact Racc |].
      assert (En : enc p = true) by (unfold enc; lia).
      rewrite En. specialize (Hin En).
      destruct (stamp_range _ _ _ HE ltac:(lia) p Hin) as (_ & _ & Hb).
      pose proof HE as S. rewrite Hrest in S, Hin.
      destruct (stamp_next acc rest 1 0 p S ltac:(lia) Hin) as [rest' ->]; [congruence |].
      destruct (walk_mono acc 1 0 ltac:(lia)) as [_ Wn]. rewrite W in Wn. simpl in Wn.
      right. split; [destruct (p_type p =? MSG_NEWKEYS); lia |]. split.
      + exists rest'. rewrite Hrest, <- app_assoc. reflexivity.
      + rewrite walk_app, W. simpl. unfold ep_after, seq_after. rewrite Z.mod_small by lia. reflexivity.
  Qed.

  Lemma do_input_IR c st i st' outs acc :
    IR st acc -> do_input mac_ok c st i = (Continue, st', outs) ->
    (forall p, In p (recvs [i]) -> enc p = true -> In p E) ->
    IR st' (acc ++ filter enc (recvs [i])).
  Proof.
    intros HI H Hin. destruct i as [p | ts]; simpl in H |- *.
    - apply (step_IR _ _ _ _ _ _ HI H (Hin p (or_introl eq_refl))).
    - destruct (local c st ts) as [sl ol] eqn:El. injection H as <- _.
      apply local_cases in El as (ks & _ & s & e & g & ->). rewrite app_nil_r. exact HI.
  Qed.

  Lemma peer_run_IR c ins : forall st st' outs acc,
    IR st acc -> peer_run mac_ok c st ins = (Continue, st', outs) ->
    (forall p, In p (recvs ins) -> enc p = true -> In p E) ->
    IR st' (acc ++ filter enc (recvs ins)).
  Proof.
    induction ins as [|i r IH]; intros st st' outs acc HI H Hin; simpl in H.
    - injection H as <- _. simpl. rewrite app_nil_r. exact HI.
    - destruct (do_input mac_ok c st i) as [[o st1] outs1] eqn:Ed.
      destruct o; try discriminate.
      destruct (peer_run mac_ok c st1 r) as [[o2 st2] outs2] eqn:Er. injection H as -> -> _.
      rewrite recvs_cons in Hin |- *. rewrite filter_app, app_assoc.
      refine (IH _ _ _ _ (do_input_IR _ _ _ _ _ _ HI Ed _) Er _);
        intros p Hp; apply Hin, in_or_app; auto.
  Qed.

  Lemma session_IR c ins st outs :
    session mac_ok c ins = (Continue, st, outs) ->
    (forall p, In p (recvs ins) -> enc p = true -> In p E) ->
    IR st (filter enc (recvs ins)).
  Proof.
    intros (st0 & outs0 & outs1 & _ & (s & e & g & ->) & Er & _)%session_cases.
    refine (peer_run_IR c ins _ st outs1 [] _ Er). intros _. left. auto.
  Qed.
End Receiver.

Lemma apply_edits_in es : forall l p,
  ins_plain es = true -> In p (apply_edits es l) -> p_epoch p <> 0 -> In p l.
Proof.
  induction es as [|e es IH]; intros l p Hp Hin Hne; simpl in *; auto.
  destruct e as [| |q].
  - destruct l as [|x l']; simpl in Hin.
    + exfalso. exact (IH [] p Hp Hin Hne).
    + destruct Hin as [->|Hin]; [left; auto|right; eapply IH; eauto].
  - destruct l as [|x l'].
    + exfalso. exact (IH [] p Hp Hin Hne).
    + right. eapply IH; eauto.
  - apply andb_true_iff in Hp. destruct Hp as [Hq Hp].
    destruct Hin as [->|Hin]; [apply Z.eqb_eq in Hq; congruence|eapply IH; eauto].
Qed.

(* Terrapin when strict kex is off: IGNORE injected ahead of the server's NEWKEYS, the server's first
   protected packet (EXT_INFO, seq 3) deleted: nobody notices, the client reads the server's packets
   numbered 4, 5 as its own 4, 5 although one packet is missing *)
Definition terrapin_script : script := [(false, 2, 2); (false, 3, -1)].

(* what an authentic peer can send in a KEXINIT: its kex-strict name (marker 1), or none (marker 0, as
   OpenSSH does on re-keys) *)
Definition honest_marker (p : pkt) : Prop := p_type p = MSG_KEXINIT -> p_marker p = 0 \/ p_marker p = 1.

Lemma handle_agreed c st p s o st1 sends :
  handle c st p s = (o, st1, sends) ->
  agreed st1 = agreed st \/
  p_type p = MSG_KEXINIT /\
  agreed st1 = if p_marker p =? 0 then agreed st else (p_marker p =? 1) && c_adv c.
Proof.
  intros H%handle_cases. destruct H; auto.
Qed.

Lemma do_input_agreed mac_ok c st i o st' outs :
  do_input mac_ok c st i = (o, st', outs) ->
  agreed st' = agreed st \/
  exists p, i = Recv p /\ p_type p = MSG_KEXINIT /\
    agreed st' = if p_marker p =? 0 then agreed st else (p_marker p =? 1) && c_adv c.
Proof.
  destruct i as [p | ts]; simpl; intro H.
  - destruct (step_cases _ _ _ _ _ _ _ H)
      as [(_ & [= _ -> _]) | (_ & st1 & sends & Hh & _ & s' & e' & g' & ->)]; [auto |].
    apply handle_agreed in Hh as [A | (T & A)]; [left | right; exists p]; auto.
  - destruct (local c st ts) as [sl ol] eqn:El. injection H as _ -> _.
    apply local_cases in El as (ks & _ & s & e & g & ->). left. reflexivity.
Qed.

Lemma in_recvs p ins : In (Recv p) ins -> In p (recvs ins).
Proof.
  induction ins as [|[q|ts] r IH]; simpl; [tauto | |].
  - intros [[= ->] | H]; auto.
  - intros [[=] | H]; auto.
Qed.

Lemma peer_run_sticky mac_ok c ins st o st' outs :
  peer_run mac_ok c st ins = (o, st', outs) -> agreed st = true -> c_adv c = true ->
  (forall p, In p (recvs ins) -> honest_marker p) -> agreed st' = true.
Proof.
  intros H Ha Hadv Hm.
  refine (peer_run_preserves mac_ok c (fun _ st _ => agreed st = true) ins _ _ _ _ [] _ Ha H).
  intros st1 i o1 st2 outs1 _ Hi A Hd.
  apply do_input_agreed in Hd as [-> | (p & -> & T & ->)]; [exact A |].
  destruct (Hm p (in_recvs _ _ Hi) T) as [-> | ->]; simpl; auto.
Qed.

Lemma peer_run_adv mac_ok c ins st o st' outs :
  peer_run mac_ok c st ins = (o, st', outs) -> (agreed st = true -> c_adv c = true) ->
  agreed st' = true -> c_adv c = true.
Proof.
  intros H Ha.
  refine (peer_run_preserves mac_ok c (fun _ st _ => agreed st = true -> c_adv c = true) ins _ _ _ _ [] _ Ha H).
  intros st1 i o1 st2 outs1 _ _ A Hd.
  apply do_input_agreed in Hd as [-> | (p & _ & _ & ->)]; [exact A |].
  destruct (p_marker p =? 0); [exact A |]. intros [_ X]%andb_true_iff. exact X.
Qed.

Lemma session_adv mac_ok c ins o st outs :
  session mac_ok c ins = (o, st, outs) -> agreed st = true -> c_adv c = true.
Proof.
  intros (st0 & outs0 & outs1 & _ & (s & e & g & ->) & Er & _)%session_cases.
  apply (peer_run_adv _ _ _ _ _ _ _ Er). discriminate.
Qed.

(* why the marker hypothesis: the code re-evaluates the flag whenever a KEXINIT carries some kex-strict-*
   name, so an (authenticated) peer sending the wrong role's name on a re-key would switch it off *)
Lemma sticky_needs_honest_marker :
  let c := cfg_of Client KDH true true false in
  let st := set_ctl peer0 true true [] false false in
  agreed (snd (fst (handle c st {| p_type := 20; p_ok := true; p_marker := 2; p_epoch := 0; p_mseq := 0 |} 0)))
  = false.
Proof. vm_compute. reflexivity. Qed.
