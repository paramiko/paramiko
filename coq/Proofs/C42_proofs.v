(* C42 — proofs.  List lemmas; what read calls and write calls leave alone, over any stream and
   without assumption on fuel; the read paths of BufferedFile over ANY stream satisfying a
   prefix-reader contract (the last two reused by C27); the channel-like stream: op sequences,
   write completeness, line buffering, timeouts. *)
From PV Require Import Bytes ListFacts C42 C42_gen FileSpec.
From Coq Require Import Lia.
Open Scope Z_scope.

Lemma is_nil_true d : is_nil d = true <-> d = [].
Proof. destruct d; cbn; split; congruence. Qed.

Lemma is_nil_false d : is_nil d = false <-> d <> [].
Proof. destruct d; cbn; split; congruence. Qed.

Lemma zlen_nonneg l : 0 <= zlen l.
Proof. unfold zlen. lia. Qed.

Lemma zlen_app a b : zlen (a ++ b) = zlen a + zlen b.
Proof. unfold zlen. rewrite app_length. lia. Qed.

Lemma zlen_nil : zlen [] = 0.
Proof. reflexivity. Qed.

Lemma zlen_zero l : zlen l = 0 -> l = [].
Proof. destruct l; cbn; [reflexivity|]. unfold zlen. cbn. lia. Qed.

Lemma zlen_pos l : l <> [] -> 0 < zlen l.
Proof. destruct l; [congruence|]. unfold zlen. cbn. lia. Qed.

Lemma take_firstn n l : take n l = firstn (Z.to_nat n) l.
Proof.
  unfold take, zlen. destruct (Z_le_gt_dec n (Z.of_nat (length l))).
  - rewrite Z.min_l by lia. reflexivity.
  - rewrite Z.min_r by lia. rewrite Nat2Z.id, firstn_all. symmetry. apply firstn_all2. lia.
Qed.

Lemma drop_skipn n l : drop n l = skipn (Z.to_nat n) l.
Proof.
  unfold drop, zlen. destruct (Z_le_gt_dec n (Z.of_nat (length l))).
  - rewrite Z.min_l by lia. reflexivity.
  - rewrite Z.min_r by lia. rewrite Nat2Z.id, skipn_all. symmetry. apply skipn_all2. lia.
Qed.

Lemma take_drop n l : take n l ++ drop n l = l.
Proof. rewrite take_firstn, drop_skipn. apply firstn_skipn. Qed.

Lemma zlen_take n l : 0 <= n -> zlen (take n l) = Z.min n (zlen l).
Proof. intros. rewrite take_firstn. unfold zlen. rewrite firstn_length. lia. Qed.

Lemma zlen_drop n l : 0 <= n -> zlen (drop n l) = zlen l - Z.min n (zlen l).
Proof. intros. rewrite drop_skipn. unfold zlen. rewrite skipn_length. lia. Qed.

Lemma take_all n l : zlen l <= n -> take n l = l.
Proof. unfold zlen. intros. rewrite take_firstn. apply firstn_all2. lia. Qed.

Lemma drop_all n l : zlen l <= n -> drop n l = [].
Proof. unfold zlen. intros. rewrite drop_skipn. apply skipn_all2. lia. Qed.

Lemma take_neg n l : n <= 0 -> take n l = [].
Proof. intros. rewrite take_firstn. replace (Z.to_nat n) with O by lia. reflexivity. Qed.

Lemma drop_neg n l : n <= 0 -> drop n l = l.
Proof. intros. rewrite drop_skipn. replace (Z.to_nat n) with O by lia. reflexivity. Qed.

Lemma take_app_le n a b : n <= zlen a -> take n (a ++ b) = take n a.
Proof. unfold zlen. intros. rewrite !take_firstn. apply firstn_app_le. lia. Qed.

Lemma drop_app_le n a b : n <= zlen a -> drop n (a ++ b) = drop n a ++ b.
Proof.
  unfold zlen. intros. rewrite !drop_skipn, skipn_app.
  replace (Z.to_nat n - length a)%nat with O by lia. reflexivity.
Qed.

Lemma take_app_ge n a b : zlen a <= n -> take n (a ++ b) = a ++ take (n - zlen a) b.
Proof.
  unfold zlen. intros. rewrite !take_firstn, firstn_app.
  rewrite (firstn_all2 a) by lia. f_equal. f_equal. lia.
Qed.

Lemma drop_app_ge n a b : zlen a <= n -> drop n (a ++ b) = drop (n - zlen a) b.
Proof.
  unfold zlen. intros. rewrite !drop_skipn, skipn_app.
  rewrite (skipn_all2 a) by lia. cbn. f_equal. lia.
Qed.

Lemma app_drop_inv res l l' : l = res ++ l' -> l' = drop (zlen res) l.
Proof. intros ->. rewrite drop_app_ge by lia. rewrite drop_neg by lia. reflexivity. Qed.

Lemma drop_drop a b l : 0 <= a -> 0 <= b -> drop a (drop b l) = drop (b + a) l.
Proof. intros. rewrite !drop_skipn, <- skipn_add. f_equal. lia. Qed.

Lemma take_chunk k l : 1 <= k ->
  l = take k l ++ drop (zlen (take k l)) l /\ zlen (take k l) <= k /\ (take k l = [] -> l = []).
Proof.
  intros Hk. pose proof (zlen_nonneg l). pose proof (zlen_take k l ltac:(lia)) as Hz.
  split; [|split; [lia|]].
  - rewrite Hz. destruct (Z_le_gt_dec k (zlen l)).
    + rewrite Z.min_l by lia. symmetry. apply take_drop.
    + rewrite Z.min_r by lia. rewrite take_all, drop_all by lia. now rewrite app_nil_r.
  - intros E. rewrite E, zlen_nil in Hz. apply zlen_zero. lia.
Qed.

Lemma index_of_app_some c a b i : index_of c a = Some i -> index_of c (a ++ b) = Some i.
Proof.
  revert i. induction a as [|x a IH]; intros i H; cbn in *; [discriminate|].
  destruct (x =? c); [exact H|].
  destruct (index_of c a) as [j|] eqn:E; cbn in H; [|discriminate].
  rewrite (IH j eq_refl). exact H.
Qed.

Lemma index_of_some c l i : index_of c l = Some i ->
  (i < length l)%nat /\ firstn (S i) l = firstn i l ++ [c] /\ ~ In c (firstn i l).
Proof.
  revert i. induction l as [|x l IH]; intros i H; cbn in H; [discriminate|].
  destruct (Z.eqb_spec x c) as [->|Hne].
  - injection H as <-. cbn. repeat split; auto. lia.
  - destruct (index_of c l) as [j|]; cbn in H; [|discriminate]. injection H as <-.
    destruct (IH j eq_refl) as (H1 & H2 & H3). cbn [length]. split; [lia|]. split.
    + change (firstn (S (S j)) (x :: l)) with (x :: firstn (S j) l). now rewrite H2.
    + cbn. intros [E|E]; auto.
Qed.

Lemma index_of_none_in c l : index_of c l = None -> ~ In c l.
Proof.
  induction l as [|x l IH]; cbn; intros H; [tauto|].
  destruct (x =? c) eqn:E; [discriminate|].
  destruct (index_of c l) eqn:E2; cbn in H; [discriminate|].
  intros [->|Hin]; [rewrite Z.eqb_refl in E; discriminate|]. now apply IH.
Qed.

Lemma index_of_some_in c l i : index_of c l = Some i -> In c l.
Proof.
  intros H. destruct (index_of_some _ _ _ H) as (_ & H2 & _).
  rewrite <- (firstn_skipn (S i) l), H2, !in_app_iff. left. right. now left.
Qed.

Lemma has_lf_true l : has_lf l = true -> exists i, index_of LF l = Some i.
Proof. unfold has_lf. destruct (index_of LF l); [eauto|discriminate]. Qed.

Lemma has_lf_false l : has_lf l = false -> index_of LF l = None.
Proof. unfold has_lf. destruct (index_of LF l); [discriminate|reflexivity]. Qed.

Lemma upto_lf_app_some a b i : index_of LF a = Some i -> upto_lf (a ++ b) = upto_lf a.
Proof.
  intros H. unfold upto_lf. rewrite (index_of_app_some _ _ b _ H), H.
  destruct (index_of_some _ _ _ H) as [Hi _]. rewrite firstn_app.
  replace (S i - length a)%nat with O by lia. cbn. apply app_nil_r.
Qed.

Lemma upto_lf_none l : index_of LF l = None -> upto_lf l = l.
Proof. unfold upto_lf. now intros ->. Qed.

Lemma cut_lf l p : index_of LF l = Some p ->
  upto_lf l = take (Z.of_nat p) l ++ [LF] /\ ~ In LF (take (Z.of_nat p) l) /\
  l = upto_lf l ++ drop (Z.of_nat p + 1) l.
Proof.
  intros H. destruct (index_of_some _ _ _ H) as (_ & H2 & H3). unfold upto_lf. rewrite H.
  rewrite take_firstn, drop_skipn, Nat2Z.id.
  replace (Z.to_nat (Z.of_nat p + 1)) with (S p) by lia.
  rewrite <- H2. split; [reflexivity|]. split; [exact H3|]. symmetry. apply firstn_skipn.
Qed.

Lemma upto_lf_cases l :
  (exists body rest, upto_lf l = body ++ [LF] /\ ~ In LF body /\ l = upto_lf l ++ rest) \/
  (upto_lf l = l /\ ~ In LF l).
Proof.
  destruct (index_of LF l) as [i|] eqn:Ei.
  - left. destruct (cut_lf _ _ Ei) as (C1 & C2 & C3). eauto.
  - right. split; [now apply upto_lf_none|now apply index_of_none_in].
Qed.

Lemma upto_lf_nonempty l : l <> [] -> upto_lf l <> [].
Proof.
  intros H. unfold upto_lf. destruct (index_of LF l); [|exact H].
  destruct l; [congruence|cbn; discriminate].
Qed.

Lemma rindex_of_none c l : rindex_of c l = None -> index_of c l = None.
Proof.
  induction l as [|x l IH]; cbn; intros H; [reflexivity|].
  destruct (rindex_of c l); [discriminate|]. destruct (x =? c); [discriminate|].
  now rewrite IH.
Qed.

Lemma rindex_of_some c l p : rindex_of c l = Some p ->
  (p < length l)%nat /\ index_of c (skipn (Datatypes.S p) l) = None.
Proof.
  revert p. induction l as [|x l IH]; intros p H; cbn in H; [discriminate|].
  destruct (rindex_of c l) as [j|] eqn:E.
  - injection H as <-. destruct (IH j eq_refl) as [H1 H2]. cbn [length skipn]. split; [lia|exact H2].
  - destruct (x =? c); [|discriminate]. injection H as <-. cbn [length]. split; [lia|].
    cbn. now apply rindex_of_none.
Qed.

Lemma index_of_none_app c a b :
  index_of c a = None -> index_of c b = None -> index_of c (a ++ b) = None.
Proof.
  induction a as [|x a IH]; cbn; intros Ha Hb; [exact Hb|].
  destruct (x =? c); [discriminate|].
  destruct (index_of c a); [discriminate|]. now rewrite IH.
Qed.

(* A read call assigns the read buffer, the two positions and the stream; a write call the write
   buffer, the positions, the size, the closed flag and the stream.  `rd_frame obs f` is f with the
   former blanked, `wr_frame obs f` is f with the latter blanked; of the stream an observation
   `obs` of the caller's choice survives.  "f' is f outside what a read may touch" is then the
   equation rd_frame obs f' = rd_frame obs f: it composes by transitivity of =, holds by
   reflexivity across upd_rd, and yields each surviving field by f_equal.  No fuel is assumed:
   a call that runs out of fuel hands back the state it met. *)
Definition rd_frame {S A} (obs : S -> A) (f : bf S) : bf A :=
  mkbf [] (wbuf f) 0 0 (fsize f) (fl_read f) (fl_write f) (fl_append f)
       (fl_buffered f) (fl_linebuf f) (bufsize f) (closed f) (obs (strm f)).
Definition wr_frame {S A} (obs : S -> A) (f : bf S) : bf A :=
  mkbf (rbuf f) [] 0 0 0 (fl_read f) (fl_write f) (fl_append f)
       (fl_buffered f) (fl_linebuf f) (bufsize f) false (obs (strm f)).

Lemma read_refused {S} (sread : S -> Z -> Z -> list Z * S) fuel f size :
  closed f = true \/ fl_read f = false -> bf_read sread fuel f size = (Raise IOErr, f).
Proof. unfold bf_read. intros [-> | ->]; [|destruct (closed f)]; reflexivity. Qed.
Lemma readline_refused {S} (sread : S -> Z -> Z -> list Z * S) fuel f size :
  closed f = true \/ fl_read f = false -> bf_readline sread fuel f size = (Raise IOErr, f).
Proof. unfold bf_readline. intros [-> | ->]; [|destruct (closed f)]; reflexivity. Qed.
Lemma write_refused {S} (swrite : S -> Z -> list Z -> Z * S) fuel f d :
  closed f = true \/ fl_write f = false -> bf_write swrite fuel f d = (Raise IOErr, f).
Proof. unfold bf_write. intros [-> | ->]; [|destruct (closed f)]; reflexivity. Qed.

Section ReadFrame.
  Context {S A : Type} (sread : S -> Z -> Z -> list Z * S) (obs : S -> A).
  Hypothesis obs_sread : forall s rp n d s', sread s rp n = (d, s') -> obs s' = obs s.
  Notation fr := (rd_frame obs).

  Lemma rd_frame_upd (f : bf S) rb ps rp s' :
    obs s' = obs (strm f) -> fr (upd_rd f rb ps rp s') = fr f.
  Proof. intros H. unfold rd_frame. cbn. now rewrite H. Qed.

  Lemma fill_loop_frame fuel : forall size f f',
    fill_loop sread fuel size f = Some f' -> fr f' = fr f.
  Proof.
    induction fuel as [|k IH]; intros size f f'; cbn [fill_loop];
      (destruct (size <=? zlen (rbuf f)); [intros [= <-]; reflexivity|]); [discriminate|].
    destruct (sread _ _ _) as [d s'] eqn:E. apply obs_sread in E.
    destruct (is_nil d); [intros [= <-]|intros H; rewrite (IH _ _ _ H)]; now apply rd_frame_upd.
  Qed.

  Lemma read_all_loop_frame fuel : forall res f res' f',
    read_all_loop sread fuel res f = Some (res', f') -> fr f' = fr f.
  Proof.
    induction fuel as [|k IH]; intros res f res' f'; cbn [read_all_loop]; [discriminate|].
    destruct (sread _ _ _) as [d s'] eqn:E. apply obs_sread in E.
    destruct (is_nil d); [intros [= <- <-]|intros H; rewrite (IH _ _ _ _ H)]; now apply rd_frame_upd.
  Qed.

  Lemma rl_loop_frame fuel : forall size line f,
    match rl_loop sread fuel size line f with
    | RLEof _ f' | RLBreak _ _ f' => fr f' = fr f
    | RLFuel => True
    end.
  Proof.
    induction fuel as [|k IH]; intros size line f; cbn [rl_loop];
      (destruct (_ && _); [reflexivity|]); (destruct (has_lf line); [reflexivity|]); [exact I|].
    destruct (sread _ _ _) as [d s'] eqn:E. apply obs_sread in E.
    destruct (is_nil d); [now apply rd_frame_upd|].
    set (f1 := upd_rd f (rbuf f) (pos f) (realpos f + zlen d) s').
    assert (H1 : fr f1 = fr f) by now apply rd_frame_upd.
    specialize (IH size (line ++ d) f1).
    destruct (rl_loop sread k size (line ++ d) f1); try exact I; now rewrite IH.
  Qed.

  Lemma read_frame fuel f size : fr (snd (bf_read sread fuel f size)) = fr f.
  Proof.
    unfold bf_read. destruct (closed f); [reflexivity|]. destruct (negb (fl_read f)); [reflexivity|].
    destruct (match size with None => true | Some n => n <? 0 end).
    - destruct (read_all_loop _ _ _ _) as [[res f1]|] eqn:E; [|reflexivity].
      exact (read_all_loop_frame _ _ _ _ _ E).
    - destruct (_ <=? _); [reflexivity|].
      destruct (fill_loop _ _ _ _) as [f1|] eqn:E; [|reflexivity].
      exact (fill_loop_frame _ _ _ _ E).
  Qed.

  Lemma readline_frame fuel f size : fr (snd (bf_readline sread fuel f size)) = fr f.
  Proof.
    unfold bf_readline. destruct (closed f); [reflexivity|]. destruct (negb (fl_read f)); [reflexivity|].
    pose proof (rl_loop_frame fuel size (rbuf f) f) as R.
    destruct (rl_loop _ _ _ _ _) as [l f1|l t f1|]; [exact R| |reflexivity].
    destruct (index_of LF l); exact R.
  Qed.

  Lemma next_frame fuel f : fr (snd (bf_next sread fuel f)) = fr f.
  Proof.
    unfold bf_next. pose proof (readline_frame fuel f None) as R.
    destruct (bf_readline _ _ _ _) as [[line|e] f1]; [destruct (is_nil line)|]; exact R.
  Qed.

  Lemma readlines_frame fuel hint : forall lfuel count f,
    fr (snd (readlines_loop sread lfuel fuel hint count f)) = fr f.
  Proof.
    induction lfuel as [|k IH]; intros count f; cbn [readlines_loop]; [reflexivity|].
    pose proof (readline_frame fuel f None) as R.
    destruct (bf_readline _ _ _ _) as [[line|e] f1]; [|exact R].
    destruct (is_nil line); [exact R|]. destruct (match hint with Some _ => _ | None => _ end); [exact R|].
    specialize (IH (count + zlen line) f1).
    destruct (readlines_loop _ _ _ _ _ _) as [[ls|e] f2]; cbn [snd] in *; now rewrite IH.
  Qed.
End ReadFrame.

Section WritePaths.
  Context {S : Type} (swrite : S -> Z -> list Z -> Z * S).

  Definition with_wbuf (f : bf S) (wb : list Z) : bf S :=
    upd_wr f wb (pos f) (realpos f) (fsize f) (strm f).

  Lemma write_all_nil fuel (f : bf S) : write_all swrite fuel f [] = Some f.
  Proof. destruct fuel; reflexivity. Qed.

  Lemma write_unbuffered fuel f d f2 :
    closed f = false -> fl_write f = true -> fl_buffered f = false ->
    write_all swrite fuel f d = Some f2 -> bf_write swrite fuel f d = (Ok tt, f2).
  Proof. intros Hc Hw Hb E. unfold bf_write. now rewrite Hc, Hw, Hb, E. Qed.

  (* write(d) on a buffered file appends d to the buffer and then writes out a prefix of the
     buffer: through the last newline of d (line-buffered), all of it once it has reached
     bufsize, or nothing *)
  Definition flush_amount (f : bf S) (d : list Z) : Z :=
    let wb := wbuf f ++ d in
    if fl_linebuf f then
      match rindex_of LF d with Some p => Z.of_nat p + (zlen wb - zlen d) + 1 | None => 0 end
    else if bufsize f <=? zlen wb then zlen wb else 0.

  Lemma write_buffered fuel f d f2 :
    closed f = false -> fl_write f = true -> fl_buffered f = true ->
    let wb := wbuf f ++ d in
    write_all swrite fuel (with_wbuf f wb) (take (flush_amount f d) wb) = Some f2 ->
    bf_write swrite fuel f d = (Ok tt, with_wbuf f2 (drop (flush_amount f d) wb)).
  Proof.
    intros Hc Hw Hb wb. unfold bf_write, flush_amount. rewrite Hc, Hw, Hb. cbn [negb]. fold wb.
    change (upd_wr f wb (pos f) (realpos f) (fsize f) (strm f)) with (with_wbuf f wb).
    assert (Hnone : write_all swrite fuel (with_wbuf f wb) (take 0 wb) = Some f2 ->
                    (Ok tt, with_wbuf f wb) = (Ok tt, with_wbuf f2 (drop 0 wb))).
    { rewrite take_neg, drop_neg, write_all_nil by lia. now intros [= <-]. }
    destruct (fl_linebuf f); [destruct (rindex_of LF d)|destruct (bufsize f <=? zlen wb)];
      try exact Hnone.
    - cbn zeta. now intros ->.
    - unfold bf_flush. change (wbuf (with_wbuf f wb)) with wb.
      rewrite take_all, drop_all by lia. now intros ->.
  Qed.

  Lemma flush_amount_range f d : 0 <= flush_amount f d <= zlen (wbuf f ++ d).
  Proof.
    unfold flush_amount. rewrite zlen_app. pose proof (zlen_nonneg (wbuf f)). pose proof (zlen_nonneg d).
    destruct (fl_linebuf f); [destruct (rindex_of LF d) as [p|] eqn:Ep|destruct (_ <=? _)]; try lia.
    apply rindex_of_some in Ep as [Hp _]. unfold zlen in *. lia.
  Qed.

  Lemma linebuf_rest f d : fl_linebuf f = true -> has_lf (wbuf f) = false ->
    has_lf (drop (flush_amount f d) (wbuf f ++ d)) = false.
  Proof.
    intros El Hn. unfold flush_amount, has_lf. rewrite El. apply has_lf_false in Hn.
    destruct (rindex_of LF d) as [p|] eqn:Ep.
    - apply rindex_of_some in Ep as [Hp Hno].
      replace (drop _ _) with (skipn (Datatypes.S p) d); [now rewrite Hno|].
      rewrite zlen_app, drop_app_ge, drop_skipn by (unfold zlen; lia). f_equal. unfold zlen. lia.
    - rewrite drop_neg by lia. now rewrite index_of_none_app; [| |apply rindex_of_none].
  Qed.

  Context {A : Type} (obs : S -> A).
  Hypothesis obs_swrite : forall s rp d k s', swrite s rp d = (k, s') -> obs s' = obs s.
  Notation fr := (wr_frame obs).

  (* wr_frame blanks the write buffer and the closed flag; _write_all touches neither *)
  Lemma write_all_frame fuel : forall f data f',
    write_all swrite fuel f data = Some f' -> fr f' = fr f /\ wbuf f' = wbuf f /\ closed f' = closed f.
  Proof.
    induction fuel as [|k IH]; intros f data f'; cbn [write_all];
      (destruct (is_nil data); [intros [= <-]; auto|]); [discriminate|].
    destruct (swrite _ _ _) as [count s'] eqn:E. apply obs_swrite in E.
    intros H. apply IH in H as (H1 & H2 & H3). rewrite H1, H2, H3.
    unfold wr_frame. destruct (fl_append f) eqn:Ea; cbn; rewrite E, Ea; auto.
  Qed.

  Lemma flush_frame fuel f : fr (snd (bf_flush swrite fuel f)) = fr f.
  Proof.
    unfold bf_flush. destruct (write_all _ _ _ _) as [f1|] eqn:E; [|reflexivity].
    exact (proj1 (write_all_frame _ _ _ _ E)).
  Qed.

  Lemma close_frame fuel f : fr (snd (bf_close swrite fuel f)) = fr f.
  Proof.
    unfold bf_close. pose proof (flush_frame fuel f) as R.
    destruct (bf_flush _ _ _) as [[u|e] f1]; exact R.
  Qed.

  Lemma write_frame fuel f d : fr (snd (bf_write swrite fuel f d)) = fr f.
  Proof.
    unfold bf_write. destruct (closed f); [reflexivity|]. destruct (negb (fl_write f)); [reflexivity|].
    destruct (negb (fl_buffered f)).
    - destruct (write_all _ _ _ _) as [f1|] eqn:E; [|reflexivity].
      exact (proj1 (write_all_frame _ _ _ _ E)).
    - destruct (fl_linebuf f); [destruct (rindex_of LF d); [|reflexivity]|destruct (_ <=? _); [|reflexivity]].
      + cbn zeta. destruct (write_all _ _ _ _) as [f1|] eqn:E; [|reflexivity].
        exact (proj1 (write_all_frame _ _ _ _ E)).
      + apply (flush_frame fuel (upd_wr f (wbuf f ++ d) (pos f) (realpos f) (fsize f) (strm f))).
  Qed.
End WritePaths.

Section Generic.
  Variable S : Type.
  Variable sread : S -> Z -> Z -> list Z * S.
  (* Rem s rp: the bytes a reader positioned at rp still has to receive from s *)
  Variable Rem : S -> Z -> list Z.
  Variable SInv : S -> Z -> Prop.
  Hypothesis sread_spec : forall s rp n d s',
      SInv s rp -> 0 < n -> sread s rp n = (d, s') ->
      Rem s rp = d ++ Rem s' (rp + zlen d) /\ zlen d <= n /\ (d = [] -> Rem s rp = []) /\
      SInv s' (rp + zlen d).

  Notation bfs := (bf S).
  Definition RemOf (f : bfs) : list Z := Rem (strm f) (realpos f).
  Definition L (f : bfs) : list Z := rbuf f ++ RemOf f.
  Definition inv (f : bfs) : Prop := SInv (strm f) (realpos f).
  Definition fuel_ok (fuel : nat) (f : bfs) : Prop := (length (RemOf f) < fuel)%nat.
  (* the offset at which the stream ends: no _read moves it *)
  Definition stream_end (f : bfs) : Z := realpos f + zlen (RemOf f).

  (* what every successful read call guarantees *)
  Definition post (f f' : bfs) (res : list Z) : Prop :=
    L f = res ++ L f' /\ pos f' = pos f + zlen res /\ inv f' /\ stream_end f' = stream_end f.

  Lemma sread_eof f n s' rb ps :
    inv f -> 0 < n -> sread (strm f) (realpos f) n = ([], s') ->
    let f1 := upd_rd f rb ps (realpos f) s' in RemOf f = [] /\ RemOf f1 = [] /\ inv f1.
  Proof.
    intros Hi Hn E. destruct (sread_spec _ _ _ _ _ Hi Hn E) as (H1 & _ & H3 & H4).
    rewrite zlen_nil, Z.add_0_r in *. unfold RemOf, inv. cbn in *. rewrite <- H1. auto.
  Qed.
  Lemma sread_more f n d s' rb ps k :
    inv f -> 0 < n -> sread (strm f) (realpos f) n = (d, s') -> d <> [] ->
    fuel_ok (Datatypes.S k) f ->
    let f1 := upd_rd f rb ps (realpos f + zlen d) s' in
    RemOf f = d ++ RemOf f1 /\ inv f1 /\ fuel_ok k f1 /\ stream_end f1 = stream_end f.
  Proof.
    intros Hi Hn E Hd Hf. destruct (sread_spec _ _ _ _ _ Hi Hn E) as (H1 & _ & _ & H4).
    apply zlen_pos in Hd. unfold stream_end, fuel_ok, RemOf, inv in *. cbn. rewrite H1 in *.
    rewrite app_length in Hf. rewrite zlen_app. unfold zlen in *. repeat split; [exact H4|lia..].
  Qed.

  Lemma fill_loop_spec fuel : forall size f,
    inv f -> fuel_ok fuel f -> 0 < bufsize f ->
    exists f', fill_loop sread fuel size f = Some f' /\
      L f' = L f /\ pos f' = pos f /\ inv f' /\ stream_end f' = stream_end f /\
      (zlen (rbuf f') < size -> RemOf f' = []).
  Proof.
    induction fuel as [|k IH]; intros size f Hi Hf Hb; [inversion Hf|].
    cbn [fill_loop]. destruct (size <=? zlen (rbuf f)) eqn:E.
    - exists f. repeat split; auto. lia.
    - set (rs := if fl_buffered f then _ else _).
      assert (Hrs : 0 < rs) by (unfold rs; destruct (fl_buffered f); lia).
      destruct (sread (strm f) (realpos f) rs) as [d s'] eqn:Er. destruct (is_nil d) eqn:En.
      + apply is_nil_true in En. subst d.
        destruct (sread_eof f rs s' (rbuf f) (pos f) Hi Hrs Er) as (R1 & R2 & R3).
        eexists. split; [reflexivity|]. unfold L, stream_end. rewrite R1, R2. repeat split; auto.
      + apply is_nil_false in En.
        destruct (sread_more f rs d s' (rbuf f ++ d) (pos f) k Hi Hrs Er En Hf) as (R1 & R2 & R3 & R4).
        destruct (IH size _ R2 R3 Hb) as (f' & E1 & E2 & E3 & E4 & E5 & E6).
        exists f'. rewrite E2, E5, R4. repeat split; auto.
        unfold L. rewrite R1. apply app_assoc_reverse.
  Qed.

  Lemma read_all_loop_spec fuel : forall res f,
    inv f -> fuel_ok fuel f ->
    exists f', read_all_loop sread fuel res f = Some (res ++ RemOf f, f') /\
      RemOf f' = [] /\ rbuf f' = rbuf f /\ pos f' = pos f + zlen (RemOf f) /\ inv f' /\
      stream_end f' = stream_end f.
  Proof.
    induction fuel as [|k IH]; intros res f Hi Hf; [inversion Hf|].
    cbn [read_all_loop].
    assert (Hn : 0 < DEFAULT_BUFSIZE) by reflexivity.
    destruct (sread (strm f) (realpos f) DEFAULT_BUFSIZE) as [d s'] eqn:Er. destruct (is_nil d) eqn:En.
    - apply is_nil_true in En. subst d.
      destruct (sread_eof f _ s' (rbuf f) (pos f) Hi Hn Er) as (R1 & R2 & R3).
      eexists. unfold stream_end. rewrite R1, R2, app_nil_r, Z.add_0_r. repeat split; auto.
    - apply is_nil_false in En.
      destruct (sread_more f _ d s' (rbuf f) (pos f + zlen d) k Hi Hn Er En Hf) as (R1 & R2 & R3 & R4).
      destruct (IH (res ++ d) _ R2 R3) as (f' & E1 & E2 & E3 & E4 & E5 & E6).
      exists f'. rewrite E1, E4, E6, R4, R1, zlen_app, <- app_assoc. cbn. repeat split; auto. lia.
  Qed.

  Lemma post_upd f f1 res rb :
    L f = res ++ rb ++ RemOf f1 -> pos f1 = pos f -> inv f1 -> stream_end f1 = stream_end f ->
    post f (upd_rd f1 rb (pos f1 + zlen res) (realpos f1) (strm f1)) res.
  Proof. intros H1 H2 H3 H4. unfold post. cbn. rewrite H2. auto. Qed.

  Lemma read_n_spec fuel f n :
    inv f -> fuel_ok fuel f -> 0 < bufsize f -> closed f = false -> fl_read f = true -> 0 <= n ->
    exists f', bf_read sread fuel f (Some n) = (Ok (take n (L f)), f') /\ post f f' (take n (L f)).
  Proof.
    intros Hi Hf Hb Hc Hr Hn. unfold bf_read. rewrite Hc, Hr. cbn [negb].
    replace (n <? 0) with false by lia.
    destruct (n <=? zlen (rbuf f)) eqn:E.
    - replace (take n (L f)) with (take n (rbuf f)) by (symmetry; apply take_app_le; lia).
      eexists. split; [reflexivity|].
      apply post_upd; auto. unfold L. now rewrite app_assoc, take_drop.
    - destruct (fill_loop_spec fuel n f Hi Hf Hb) as (f1 & E1 & E2 & E3 & E4 & E5 & E6).
      rewrite E1.
      assert (Ht : take n (rbuf f1) = take n (L f)).
      { rewrite <- E2. unfold L. destruct (Z_lt_ge_dec (zlen (rbuf f1)) n) as [Hlt|Hge].
        - now rewrite (E6 Hlt), app_nil_r.
        - now rewrite take_app_le by lia. }
      rewrite <- Ht. eexists. split; [reflexivity|].
      apply post_upd; auto. now rewrite app_assoc, take_drop.
  Qed.

  Lemma read_all_spec fuel f size :
    inv f -> fuel_ok fuel f -> closed f = false -> fl_read f = true ->
    match size with None => True | Some n => n < 0 end ->
    exists f', bf_read sread fuel f size = (Ok (L f), f') /\ post f f' (L f) /\ L f' = [].
  Proof.
    intros Hi Hf Hc Hr Hs. unfold bf_read. rewrite Hc, Hr. cbn [negb].
    replace (match size with None => true | Some n => n <? 0 end) with true
      by (destruct size; [symmetry; lia|reflexivity]).
    (* the loop starts from f with the buffer emptied into the result *)
    destruct (read_all_loop_spec fuel (rbuf f) (upd_rd f [] (pos f + zlen (rbuf f)) (realpos f) (strm f)) Hi Hf)
      as (f' & E1 & E2 & E3 & E4 & E5 & E6).
    rewrite E1. exists f'. split; [reflexivity|].
    assert (HL : L f' = []) by (unfold L; now rewrite E2, E3).
    split; [|exact HL]. unfold post. rewrite HL, app_nil_r, E4. cbn. unfold L. rewrite zlen_app.
    repeat split; auto. symmetry. apply Z.add_assoc.
  Qed.

  (* what read(size) returns, as the reference has it: everything for None or a negative size *)
  Definition read_value (size : option Z) (l : list Z) : list Z :=
    if match size with None => true | Some n => n <? 0 end then l
    else take (match size with Some n => n | None => 0 end) l.

  Lemma read_spec fuel f size :
    inv f -> fuel_ok fuel f -> 0 < bufsize f -> closed f = false -> fl_read f = true ->
    exists f', bf_read sread fuel f size = (Ok (read_value size (L f)), f') /\
               post f f' (read_value size (L f)).
  Proof.
    intros Hi Hf Hb Hc Hr. unfold read_value.
    destruct size as [n|]; [destruct (Z.ltb_spec n 0)|].
    - destruct (read_all_spec fuel f (Some n) Hi Hf Hc Hr H) as (f' & E & P & _). eauto.
    - now apply read_n_spec.
    - destruct (read_all_spec fuel f None Hi Hf Hc Hr I) as (f' & E & P & _). eauto.
  Qed.

  Definition szof (size : option Z) : Z := match size with Some s => s | None => 0 end.

  Lemma line_spec_eq size l :
    line_spec size l = upto_lf (if sized size then take (szof size) l else l).
  Proof. destruct size as [s|]; cbn; [destruct (0 <=? s)|]; reflexivity. Qed.

  (* what the iterations of a loop keep, whatever they do to the buffers *)
  Definition kept (f f' : bfs) : Prop :=
    pos f' = pos f /\ inv f' /\ stream_end f' = stream_end f.

  (* the loop leaves with the line gathered so far (`full` below where it is cut at `size`);
     line ++ RemOf is what it keeps *)
  Lemma rl_loop_spec fuel : forall size line f,
    inv f -> fuel_ok fuel f -> 0 < bufsize f ->
    match rl_loop sread fuel size line f with
    | RLFuel => False
    | RLEof line' f' =>
        line' = line ++ RemOf f /\ RemOf f' = [] /\ has_lf line' = false /\
        (sized size = true -> zlen line' < szof size) /\ kept f f'
    | RLBreak line' true f' =>
        sized size = true /\
        exists full, full ++ RemOf f' = line ++ RemOf f /\ szof size <= zlen full /\
          line' = take (szof size) full /\ rbuf f' = drop (szof size) full /\ kept f f'
    | RLBreak line' false f' =>
        line' ++ RemOf f' = line ++ RemOf f /\ has_lf line' = true /\
        (sized size = true -> zlen line' < szof size) /\ kept f f'
    end.
  Proof.
    induction fuel as [|k IH]; intros size line f Hi Hf Hb; [inversion Hf|].
    cbn [rl_loop]. fold (sized size). fold (szof size). unfold kept in *.
    destruct (sized size && (szof size <=? zlen line)) eqn:E.
    - apply andb_true_iff in E as [E1 E2]. split; [exact E1|]. exists line. repeat split; auto. lia.
    - assert (Hshort : sized size = true -> zlen line < szof size)
        by (intros Hs; rewrite Hs in E; cbn in E; lia).
      destruct (has_lf line) eqn:Hl; [repeat split; auto|].
      set (n := if sized size then szof size - zlen line else bufsize f).
      assert (Hn : 0 < n) by (unfold n; destruct (sized size); [specialize (Hshort eq_refl)|]; lia).
      destruct (sread (strm f) (realpos f) n) as [d s'] eqn:Er. destruct (is_nil d) eqn:En.
      + apply is_nil_true in En. subst d.
        destruct (sread_eof f n s' (rbuf f) (pos f) Hi Hn Er) as (R1 & R2 & R3).
        unfold stream_end. rewrite R1, R2, app_nil_r. repeat split; auto.
      + apply is_nil_false in En.
        destruct (sread_more f n d s' (rbuf f) (pos f) k Hi Hn Er En Hf) as (R1 & R2 & R3 & R4).
        specialize (IH size (line ++ d) _ R2 R3 Hb).
        rewrite <- app_assoc, <- R1, R4 in IH. exact IH.
  Qed.

  Lemma readline_spec fuel f size :
    inv f -> fuel_ok fuel f -> 0 < bufsize f -> closed f = false -> fl_read f = true ->
    exists f', bf_readline sread fuel f size = (Ok (line_spec size (L f)), f') /\
               post f f' (line_spec size (L f)).
  Proof.
    intros Hi Hf Hb Hc Hr. unfold bf_readline. rewrite Hc, Hr. cbn [negb].
    pose proof (rl_loop_spec fuel size (rbuf f) f Hi Hf Hb) as H. fold (L f) in H.
    rewrite line_spec_eq.
    destruct (rl_loop sread fuel size (rbuf f) f) as [l' f1|l' [|] f1|]; [| | |contradiction].
    - (* EOF: the line is all there was, and holds no newline *)
      destruct H as (A1 & A2 & A3 & A4 & A5 & A6 & A7). rewrite <- A1.
      replace (if sized size then take (szof size) l' else l') with l'
        by (destruct (sized size); [rewrite take_all by (specialize (A4 eq_refl); lia)|]; reflexivity).
      rewrite (upto_lf_none _ (has_lf_false _ A3)). eexists. split; [reflexivity|].
      apply post_upd; auto. rewrite A2, <- A1. symmetry. apply app_nil_r.
    - (* cut at size: the line is the first `size` bytes, the rest goes back to the buffer *)
      destruct H as (Es & full & A1 & A2 & A3 & A4 & A5 & A6 & A7).
      assert (Hfull : L f = l' ++ rbuf f1 ++ RemOf f1)
        by (rewrite <- A1, A3, A4, app_assoc, take_drop; reflexivity).
      rewrite Es, <- A1, take_app_le, <- A3 by lia.
      destruct (index_of LF l') as [p|] eqn:Ep.
      + destruct (cut_lf _ _ Ep) as (C1 & _ & C2). rewrite <- C1.
        eexists. split; [reflexivity|]. apply post_upd; auto.
        rewrite Hfull. rewrite C2 at 1. now rewrite <- !app_assoc.
      + rewrite (upto_lf_none _ Ep). eexists. split; [reflexivity|]. now apply post_upd.
    - (* a newline was found before size was reached *)
      destruct H as (A1 & A2 & A4 & A5 & A6 & A7).
      destruct (has_lf_true _ A2) as (p & Ep). rewrite Ep. destruct (cut_lf _ _ Ep) as (C1 & _ & C2).
      replace (upto_lf (if sized size then take (szof size) (L f) else L f)) with (upto_lf l').
      + rewrite <- C1. eexists. split; [reflexivity|]. apply post_upd; auto.
        rewrite <- A1. rewrite C2 at 1. now rewrite <- app_assoc.
      + rewrite <- A1. destruct (sized size).
        * rewrite take_app_ge by (specialize (A4 eq_refl); lia). now rewrite (upto_lf_app_some _ _ _ Ep).
        * now rewrite (upto_lf_app_some _ _ _ Ep).
  Qed.

  Lemma post_trans f f1 f2 a b : post f f1 a -> post f1 f2 b -> post f f2 (a ++ b).
  Proof.
    intros (A1 & A2 & _ & A4) (B1 & B2 & B3 & B4). unfold post.
    rewrite A1, B1, B2, A2, B4, A4, zlen_app, app_assoc, Z.add_assoc. auto.
  Qed.

  (* the two length hypotheses bound the two fuels of the model *)
  Lemma readlines_spec fuel hint : forall lfuel count f,
    inv f -> (length (L f) < fuel)%nat -> (length (L f) < lfuel)%nat ->
    0 < bufsize f -> closed f = false -> fl_read f = true ->
    exists ls f', readlines_loop sread lfuel fuel hint count f = (Ok ls, f') /\
      post f f' (concat ls) /\
      (hint = None -> ls = lines_of lfuel (L f) /\ L f' = []).
  Proof.
    induction lfuel as [|k IH]; intros count f Hi Hf Hl Hb Hc Hr; [inversion Hl|].
    assert (Hfo : fuel_ok fuel f) by (unfold L in Hf; rewrite app_length in Hf; unfold fuel_ok; lia).
    cbn [readlines_loop lines_of].
    destruct (readline_spec fuel f None Hi Hfo Hb Hc Hr) as (f1 & E & P). rewrite E.
    change (line_spec None (L f)) with (upto_lf (L f)) in *.
    pose proof (readline_frame sread (fun _ => tt) (fun _ _ _ _ _ _ => eq_refl) fuel f None) as Fr.
    rewrite E in Fr. cbn [snd] in Fr.
    destruct (is_nil (L f)) eqn:En0.
    { apply is_nil_true in En0. rewrite En0 in P |- *. change (upto_lf []) with (@nil Z) in *.
      exists [], f1. split; [reflexivity|]. split; [exact P|]. intros _. split; [reflexivity|].
      destruct P as [P1 _]. rewrite En0 in P1. now symmetry. }
    apply is_nil_false in En0. pose proof (upto_lf_nonempty _ En0) as En.
    set (line := upto_lf (L f)) in *. rewrite (proj2 (is_nil_false line) En).
    destruct (match hint with Some h => h <=? count + zlen line | None => false end) eqn:Est.
    - exists [line], f1. cbn [concat]. rewrite app_nil_r. split; [reflexivity|]. split; [exact P|].
      intros ->. discriminate.
    - pose proof P as (P1 & _ & P3 & _). apply zlen_pos in En.
      pose proof (app_drop_inv _ _ _ P1) as HL1.
      assert (Hlen : (length (L f1) < length (L f))%nat)
        by (rewrite P1, app_length; unfold zlen in En; lia).
      destruct (IH (count + zlen line) f1 P3 ltac:(lia) ltac:(lia))
        as (ls & f2 & E2 & P2 & Hls).
      { now rewrite (f_equal bufsize Fr : bufsize f1 = bufsize f). }
      { now rewrite (f_equal closed Fr : closed f1 = closed f). }
      { now rewrite (f_equal fl_read Fr : fl_read f1 = fl_read f). }
      rewrite E2. exists (line :: ls), f2. split; [reflexivity|].
      split; [exact (post_trans _ _ _ _ _ P P2)|]. intros Hh. destruct (Hls Hh) as [-> HL2]. now rewrite HL1.
  Qed.
End Generic.

Definition cRem (s : cstream) (_ : Z) : list Z := sdata s.
Definition cInv (_ : cstream) (_ : Z) : Prop := True.

Lemma c_sread_spec : forall s rp n d s',
  cInv s rp -> 0 < n -> c_sread s rp n = (d, s') ->
  cRem s rp = d ++ cRem s' (rp + zlen d) /\ zlen d <= n /\ (d = [] -> cRem s rp = []) /\
  cInv s' (rp + zlen d).
Proof.
  intros s rp n d s' _ Hn E. unfold c_sread in E. injection E as <- <-. unfold cRem, cInv. cbn.
  set (k := Z.min n (Z.max 1 (hd 1 (roracle s)))).
  assert (Hk : 1 <= k <= n) by (unfold k; lia).
  destruct (take_chunk k (sdata s) (proj1 Hk)) as (_ & H2 & H3).
  split; [now rewrite take_drop|]. split; [lia|]. split; [exact H3|exact I].
Qed.

Lemma logical_L (f : cbf) : logical f = L cstream cRem f.
Proof. reflexivity. Qed.

Definition readable (f : cbf) : Prop := closed f = false /\ fl_read f = true.

(* calls that go down the read paths; the others go down the write paths *)
Definition reads (o : op) : bool :=
  match o with OWrite _ | OFlush | OClose => false | _ => true end.

Lemma snd_of_bytes p : snd (of_bytes p) = snd p.
Proof. now destruct p as [[b|e] f]. Qed.
Lemma snd_of_unit p : snd (of_unit p) = snd p.
Proof. now destruct p as [[u|e] f]. Qed.
Lemma of_unit_bytes p r f : of_unit p = (r, f) -> result_bytes r = [].
Proof. destruct p as [[u|e] g]; intros [= <- _]; reflexivity. Qed.

Lemma unreadable fuel (f : cbf) o :
  reads o = true -> ~ readable f -> (0 < fuel)%nat -> step fuel f o = (RExn IOErr, f).
Proof.
  intros Ho Hn Hfu.
  assert (U : closed f = true \/ fl_read f = false)
    by (unfold readable in Hn; destruct (closed f), (fl_read f); auto; tauto).
  destruct o; try discriminate Ho; cbn [step]; unfold bf_next, bf_readlines.
  - now rewrite read_refused.
  - now rewrite read_refused.
  - now rewrite readline_refused.
  - destruct fuel; [inversion Hfu|]. cbn [readlines_loop]. now rewrite readline_refused.
  - now rewrite readline_refused.
Qed.

(* of the stream, a read call leaves alone what it was handed (delivered), a write call what it
   still has to deliver (sdata) *)
Lemma step_rd_frame fuel (f : cbf) o :
  reads o = true -> rd_frame delivered (snd (step fuel f o)) = rd_frame delivered f.
Proof.
  assert (Ho : forall s rp n d s', c_sread s rp n = (d, s') -> delivered s' = delivered s)
    by (intros s rp n d s' [= _ <-]; reflexivity).
  destruct o; try discriminate; intros _; cbn [step]; rewrite ?snd_of_bytes.
  - now apply read_frame.
  - now apply read_frame.
  - now apply readline_frame.
  - pose proof (readlines_frame c_sread delivered Ho fuel hint fuel 0 f) as R. unfold bf_readlines.
    destruct (readlines_loop _ _ _ _ _ _) as [[ls|e] f1]; exact R.
  - now apply next_frame.
Qed.
Lemma step_wr_frame fuel (f : cbf) o :
  reads o = false -> wr_frame sdata (snd (step fuel f o)) = wr_frame sdata f.
Proof.
  assert (Ho : forall s rp d k s', c_swrite s rp d = (k, s') -> sdata s' = sdata s)
    by (intros s rp d k s' [= _ <-]; reflexivity).
  destruct o; try discriminate; intros _; cbn [step]; rewrite snd_of_unit.
  - now apply write_frame.
  - now apply flush_frame.
  - now apply close_frame.
Qed.

Lemma step_logical fuel (f : cbf) o r f' :
  (length (logical f) < fuel)%nat -> 0 < bufsize f -> step fuel f o = (r, f') ->
  logical f = result_bytes r ++ logical f' /\ bufsize f' = bufsize f.
Proof.
  intros Hf Hb H. destruct (reads o) eqn:Ho.
  - split; [|pose proof (f_equal bufsize (step_rd_frame fuel f o Ho)) as B; now rewrite H in B].
    assert (Hs : fuel_ok cstream cRem fuel f)
      by (unfold logical in Hf; rewrite app_length in Hf; unfold fuel_ok, RemOf, cRem; lia).
    assert (Hrd : readable f \/ ~ readable f)
      by (unfold readable; destruct (closed f), (fl_read f); intuition congruence).
    destruct Hrd as [[Hc Hr]|Hn].
    + assert (Hcall : forall call res,
                (exists f1, call = (Ok res, f1) /\ post cstream cRem cInv f f1 res) ->
                of_bytes call = (r, f') -> logical f = result_bytes r ++ logical f').
      { intros call res (f1 & -> & P & _) [= <- <-]. exact P. }
      destruct o as [n| |size|hint| |d| |]; try discriminate Ho; cbn [step] in H.
      * exact (Hcall _ _ (read_spec _ _ _ _ c_sread_spec fuel f (Some n) I Hs Hb Hc Hr) H).
      * exact (Hcall _ _ (read_spec _ _ _ _ c_sread_spec fuel f None I Hs Hb Hc Hr) H).
      * exact (Hcall _ _ (readline_spec _ _ _ _ c_sread_spec fuel f size I Hs Hb Hc Hr) H).
      * destruct (readlines_spec _ _ _ _ c_sread_spec fuel hint fuel 0 f I Hf Hf Hb Hc Hr)
          as (ls & f1 & E & (P & _) & _).
        unfold bf_readlines in H. rewrite E in H. injection H as <- <-. exact P.
      * destruct (readline_spec _ _ _ _ c_sread_spec fuel f None I Hs Hb Hc Hr) as (f1 & E & P & _).
        unfold bf_next in H. rewrite E in H.
        destruct (is_nil _) eqn:En; injection H as <- <-; [apply is_nil_true in En; rewrite En in P|]; exact P.
    + rewrite (unreadable fuel f o Ho Hn ltac:(lia)) in H. now injection H as <- <-.
  - pose proof (step_wr_frame fuel f o Ho) as Fr. rewrite H in Fr. cbn [snd] in Fr.
    split; [|exact (f_equal bufsize Fr)]. unfold logical.
    rewrite (f_equal rbuf Fr : rbuf f' = rbuf f), (f_equal strm Fr : sdata (strm f') = sdata (strm f)).
    destruct o; try discriminate Ho; now rewrite (of_unit_bytes _ _ _ H).
Qed.

Lemma write_all_spec fuel : forall (f : cbf) data,
  (length data < fuel)%nat ->
  exists f', write_all c_swrite fuel f data = Some f' /\
             delivered (strm f') = delivered (strm f) ++ data.
Proof.
  induction fuel as [|k IH]; intros f data Hl; [inversion Hl|].
  cbn [write_all]. destruct (is_nil data) eqn:En.
  - apply is_nil_true in En. subst. exists f. now rewrite app_nil_r.
  - apply is_nil_false, zlen_pos in En. unfold c_swrite at 1.
    set (kk := Z.max 1 _). assert (Hk : 1 <= kk <= zlen data) by (unfold kk; lia).
    set (f1 := if fl_append f then _ else _).
    destruct (IH f1 (drop kk data)) as (f' & E & D).
    { pose proof (zlen_drop kk data ltac:(lia)). unfold zlen in *. lia. }
    exists f'. split; [exact E|]. rewrite D. unfold f1.
    destruct (fl_append f); cbn; now rewrite <- app_assoc, take_drop.
Qed.

Lemma flush_spec fuel (f : cbf) :
  (length (wbuf f) < fuel)%nat ->
  exists f', bf_flush c_swrite fuel f = (Ok tt, f') /\ wbuf f' = [] /\
             delivered (strm f') = delivered (strm f) ++ wbuf f.
Proof.
  intros Hl. unfold bf_flush. destruct (write_all_spec fuel f (wbuf f) Hl) as (f1 & E & D).
  rewrite E. eexists. split; [reflexivity|]. split; [reflexivity|exact D].
Qed.

Definition opw (o : op) : nat := match o with OWrite d => length d | _ => O end.
Definition wtotal (ops : list op) : nat := fold_right (fun o a => (opw o + a)%nat) O ops.
(* data of the write calls that were accepted (returned None) *)
Definition accepted1 (o : op) (r : oresult) : list Z :=
  match o, r with OWrite d, RNone => d | _, _ => [] end.
Fixpoint accepted (ops : list op) (rs : list oresult) : list Z :=
  match ops, rs with
  | o :: ops', r :: rs' => accepted1 o r ++ accepted ops' rs'
  | _, _ => []
  end.
Definition winv (f : cbf) : Prop := fl_buffered f = false -> wbuf f = [].
(* the whole data handed to write so far is split between the stream and the buffer *)
Definition wview (f : cbf) : list Z := delivered (strm f) ++ wbuf f.

Lemma write_spec fuel (f : cbf) d :
  (length (wbuf f) + length d < fuel)%nat -> closed f = false -> fl_write f = true -> winv f ->
  exists f', bf_write c_swrite fuel f d = (Ok tt, f') /\
    wview f' = wview f ++ d /\ (length (wbuf f') <= length (wbuf f) + length d)%nat /\
    (fl_buffered f = false -> wbuf f' = []) /\
    (fl_linebuf f = true -> has_lf (wbuf f) = false -> has_lf (wbuf f') = false).
Proof.
  intros Hl Hc Hw Hunb. unfold wview. destruct (fl_buffered f) eqn:Eb.
  - (* buffered: d joins the buffer, a prefix of which is written out *)
    pose proof (flush_amount_range f d) as Hk.
    set (wb := wbuf f ++ d) in *. set (k := flush_amount f d) in *.
    assert (Hlen : (length wb < fuel)%nat) by (unfold wb; rewrite app_length; exact Hl).
    destruct (write_all_spec fuel (with_wbuf f wb) (take k wb)) as (f2 & E & D).
    { pose proof (zlen_take k wb (proj1 Hk)). unfold zlen in *. lia. }
    exists (with_wbuf f2 (drop k wb)). split; [exact (write_buffered c_swrite fuel f d f2 Hc Hw Eb E)|].
    cbn. rewrite D. cbn. split; [now rewrite <- !app_assoc, take_drop|].
    split; [|split; [discriminate|apply linebuf_rest]].
    rewrite <- app_length. fold wb. rewrite drop_skipn, skipn_length. lia.
  - (* unbuffered: the buffer is empty and d goes straight out *)
    rewrite (Hunb Eb) in *.
    destruct (write_all_spec fuel f d Hl) as (f2 & E & D). rewrite (write_unbuffered _ _ _ _ _ Hc Hw Eb E).
    destruct (write_all_frame c_swrite (fun _ => tt) (fun _ _ _ _ _ _ => eq_refl) _ _ _ _ E) as (_ & W & _).
    rewrite (Hunb Eb) in W. exists f2. rewrite W, D, !app_nil_r. cbn. repeat split; auto. lia.
Qed.

(* what a call does to the write side: it accepts `acc` and lets the buffer grow by at most n *)
Definition wstep (f f' : cbf) (acc : list Z) (n : nat) : Prop :=
  wview f' = wview f ++ acc /\ winv f' /\
  (length (wbuf f') <= length (wbuf f) + n)%nat /\
  fl_linebuf f' = fl_linebuf f /\
  (fl_linebuf f = true -> has_lf (wbuf f) = false -> has_lf (wbuf f') = false).

Lemma wstep_none (f f' : cbf) n :
  wview f' = wview f -> wbuf f' = wbuf f \/ wbuf f' = [] ->
  fl_buffered f' = fl_buffered f -> fl_linebuf f' = fl_linebuf f -> winv f -> wstep f f' [] n.
Proof.
  intros V W B Lb Hw. unfold wstep, winv. rewrite V, B, app_nil_r.
  destruct W as [-> | ->]; repeat split; auto using Nat.le_add_r, Nat.le_0_l.
Qed.

Lemma step_wview fuel (f : cbf) o r f' :
  (length (wbuf f) + opw o < fuel)%nat -> winv f -> step fuel f o = (r, f') ->
  wstep f f' (accepted1 o r) (opw o).
Proof.
  intros Hf Hw H.
  destruct (reads o) eqn:Ho.
  - pose proof (step_rd_frame fuel f o Ho) as Fr. rewrite H in Fr.
    pose proof (f_equal wbuf Fr : wbuf f' = wbuf f) as W.
    pose proof (f_equal strm Fr : delivered (strm f') = delivered (strm f)) as D.
    pose proof (f_equal fl_buffered Fr : fl_buffered f' = fl_buffered f) as B.
    pose proof (f_equal fl_linebuf Fr : fl_linebuf f' = fl_linebuf f) as Lb.
    replace (accepted1 o r) with (@nil Z) by (destruct o; try discriminate Ho; reflexivity).
    apply wstep_none; auto. unfold wview. now rewrite W, D.
  - pose proof (step_wr_frame fuel f o Ho) as Fr. rewrite H in Fr.
    pose proof (f_equal fl_buffered Fr : fl_buffered f' = fl_buffered f) as B.
    pose proof (f_equal fl_linebuf Fr : fl_linebuf f' = fl_linebuf f) as Lb.
    destruct o as [n| |size|hint| |d| |]; try discriminate Ho; cbn [step opw] in *.
    + assert (Hopen : closed f = false /\ fl_write f = true \/ closed f = true \/ fl_write f = false)
        by (destruct (closed f), (fl_write f); auto).
      destruct Hopen as [[Ec Ewr]|Hno].
      * destruct (write_spec fuel f d Hf Ec Ewr Hw) as (f1 & E & V & Hlen & U & Hlb).
        rewrite E in H. injection H as <- <-. unfold wstep, winv. rewrite B. auto 8.
      * rewrite (write_refused _ _ _ _ Hno) in H. injection H as <- <-. now apply wstep_none; auto.
    + destruct (flush_spec fuel f ltac:(lia)) as (f1 & E & W & D).
      rewrite E in H. injection H as <- <-. apply wstep_none; auto. unfold wview. now rewrite W, D, app_nil_r.
    + destruct (flush_spec fuel f ltac:(lia)) as (f1 & E & W & D). unfold bf_close in H.
      rewrite E in H. injection H as <- <-. apply wstep_none; auto. unfold wview. cbn. now rewrite W, D, app_nil_r.
Qed.

Lemma run_ops_wview fuel : forall ops (f : cbf) rs f',
  (length (wbuf f) + wtotal ops < fuel)%nat -> winv f -> run_ops fuel f ops = (rs, f') ->
  wview f' = wview f ++ accepted ops rs /\ winv f' /\
  (fl_linebuf f = true -> has_lf (wbuf f) = false -> has_lf (wbuf f') = false).
Proof.
  induction ops as [|o ops IH]; intros f rs f' Hf Hw H; cbn [run_ops] in H.
  - injection H as <- <-. cbn. rewrite app_nil_r. auto.
  - destruct (step fuel f o) as [x f1] eqn:E1.
    destruct (run_ops fuel f1 ops) as [xs f2] eqn:E2. injection H as <- <-.
    cbn [wtotal fold_right] in Hf. fold (wtotal ops) in Hf.
    destruct (step_wview fuel f o x f1 ltac:(lia) Hw E1) as (V & W1 & Hl & Lb & Hlf).
    destruct (IH f1 xs f2 ltac:(lia) W1 E2) as (V2 & W2 & Hlf2).
    cbn [accepted]. rewrite V2, V, app_assoc, Lb in *. auto.
Qed.

(* tie to the source: constants and the mode / buffering table of _set_mode, regenerated from
   paramiko/file.py on every run (coq/Gen/C42_gen.v, gen/c42.py) *)
Definition flags_of {S} (f : bf S) : Z :=
  (if fl_read f then G_FLAG_READ else 0) + (if fl_write f then G_FLAG_WRITE else 0) +
  (if fl_append f then G_FLAG_APPEND else 0) + (if fl_buffered f then G_FLAG_BUFFERED else 0) +
  (if fl_linebuf f then G_FLAG_LINE_BUFFERED else 0).
Definition set_mode_row_ok (row : (bool * bool * bool * bool) * Z * Z * (Z * Z * Z)) : bool :=
  let '((r, w, a, p), bs, size, (fl, bsz, ps)) := row in
  let f := set_mode r w a p bs size tt in
  (flags_of f =? fl) && (bufsize f =? bsz) && (pos f =? ps) && (realpos f =? ps) &&
  (if a then fsize f =? size else true).

Lemma set_mode_bufsize {S} (hr hw ha hp : bool) bufsz size0 (s : S) :
  0 < bufsize (set_mode hr hw ha hp bufsz size0 s).
Proof. unfold set_mode, DEFAULT_BUFSIZE. cbn. destruct (bufsz <? 0); destruct (1 <? _) eqn:E; lia. Qed.

(* timeouts: a _read that raises delivers nothing and consumes nothing, one that does not takes
   its chunk off the front of the stream; so nothing is lost when _read raises between two chunks
   of one read(n) *)
Lemma e_sread_keeps s rp n d s' :
  e_sread s rp n = (d, s') -> sdata (ebase s) = d ++ sdata (ebase s').
Proof.
  unfold e_sread, c_sread.
  destruct (efaults s) as [|[|] r]; intros [= <- <-]; cbn; auto using take_drop.
Qed.
Lemma fill_loop_ev_pres fuel : forall size (f f' : ebf),
  fill_loop e_sread fuel size f = Some f' -> elogical f' = elogical f.
Proof.
  induction fuel as [|k IH]; intros size f f'; cbn [fill_loop];
    (destruct (size <=? zlen (rbuf f)); [intros [= <-]; reflexivity|]); [discriminate|].
  destruct (e_sread _ _ _) as [d s'] eqn:E. apply e_sread_keeps in E.
  destruct (is_nil d) eqn:En.
  - apply is_nil_true in En. subst d. intros [= <-]. unfold elogical. cbn. now rewrite E.
  - intros H. rewrite (IH _ _ _ H). unfold elogical. cbn. now rewrite E, app_assoc.
Qed.

Lemma read_ev_pres fuel (f : ebf) n r f' :
  bf_read_ev fuel f n = (r, f') -> elogical f = ok_bytes r ++ elogical f'.
Proof.
  unfold bf_read_ev. destruct (closed f); [now intros [= <- <-]|].
  destruct (negb (fl_read f)); [now intros [= <- <-]|]. destruct (n <? 0); [now intros [= <- <-]|].
  destruct (n <=? zlen (rbuf f)).
  - intros [= <- <-]. unfold elogical. cbn. now rewrite app_assoc, take_drop.
  - destruct (fill_loop e_sread fuel n f) as [f1|] eqn:E; [|now intros [= <- <-]].
    apply fill_loop_ev_pres in E. rewrite <- E.
    destruct (efault (strm f1)); intros [= <- <-]; [reflexivity|].
    unfold elogical. cbn. now rewrite app_assoc, take_drop.
Qed.
