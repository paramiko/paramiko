(* C22 -- proofs over Model/C22.v.  The ghost trace [ltr] holds the messages in the order in which
   the critical sections produced them.  It always reads DATA* EOF? CLOSE? ([shape]), and the flags
   closed / eof_sent / in_map with the two ghost flags agree with it ([Agree]).  Every critical
   section has one of seven [effect]s on flags and trace, and each effect keeps [Agree]; what the
   theorems say about counts and order is read off [Agree] ([SI]).  The wire is tied to [ltr] as a
   multiset only: wire and pending messages together have the counts of [ltr]. *)
From PV Require Import Bytes Sched C22.
Open Scope Z_scope.

Lemma cnt_app p a b : cnt p (a ++ b) = (cnt p a + cnt p b)%nat.
Proof. induction a as [|m a IH]; cbn; [reflexivity|]. rewrite IH. lia. Qed.

Lemma nda_aux_app e a b :
  nda_aux e (a ++ b) = nda_aux e a && nda_aux (e || existsb isEnd a) b.
Proof.
  revert e. induction a as [|m a IH]; intros e; cbn.
  - now rewrite orb_false_r.
  - rewrite IH. now rewrite <- andb_assoc, orb_assoc.
Qed.

Lemma nea_aux_app e a b :
  nea_aux e (a ++ b) = nea_aux e a && nea_aux (e || existsb isClose a) b.
Proof.
  revert e. induction a as [|m a IH]; intros e; cbn.
  - now rewrite orb_false_r.
  - rewrite IH. now rewrite <- andb_assoc, orb_assoc.
Qed.

Lemma cnt_pending_upd p l i t t' :
  nth_error l i = Some t ->
  (cnt p (concat (map pend (upd i t' l))) + cnt p (pend t)
   = cnt p (concat (map pend l)) + cnt p (pend t'))%nat.
Proof.
  revert i. induction l as [|y l IH]; intros [|j] H; try discriminate; cbn in *; rewrite !cnt_app.
  - injection H as ->. lia.
  - specialize (IH j H). lia.
Qed.

(* [shape e c l]: [l] reads DATA* EOF? CLOSE? with WINDOW_ADJUSTs anywhere, [e] says that the EOF
   is there and [c] that the CLOSE is. *)
Inductive shape : bool -> bool -> list msg -> Prop :=
| shape_nil : shape false false []
| shape_wa e c l n : shape e c l -> shape e c (l ++ [MWa n])
| shape_data l m : isData m = true -> shape false false l -> shape false false (l ++ [m])
| shape_eof l : shape false false l -> shape true false (l ++ [MEof])
| shape_close e l : shape e false l -> shape e true (l ++ [MClose]).

Lemma shape_sound e c l :
  shape e c l ->
  cnt isEof l = Nat.b2n e /\ cnt isClose l = Nat.b2n c /\
  existsb isEnd l = e || c /\ existsb isClose l = c /\
  nda_aux false l = true /\ nea_aux false l = true.
Proof.
  induction 1 as [|e c l n _ IH|l m Hm _ IH|l _ IH|e l _ IH]; [now repeat split|..];
    destruct IH as (E1 & E2 & E3 & E4 & E5 & E6);
    rewrite !cnt_app, !existsb_app, nda_aux_app, nea_aux_app, E1, E2, E3, E4, E5, E6; cbn.
  - now destruct e, c.
  - now destruct m.
  - now repeat split.
  - now destruct e.
Qed.

(* What the five flags closed, eof_sent, in_map, gotc, gotr say about the trace: an EOF in it
   means eof_sent, a CLOSE means closed and eof_sent (close sends the EOF first); a channel
   closed while still in the transport's map was closed by _close_internal, not by _unlink,
   so the CLOSE is there; so it is once the ghost [gotc] is set. *)
Definition Agree (cl es im gc gr : bool) (l : list msg) : Prop :=
  exists e c, shape e c l /\
    (e = true -> es = true) /\ (c = true -> cl = true /\ es = true) /\
    (cl = true -> im = true -> c = true) /\ (gc = true -> c = true /\ im = false) /\
    (gr = true -> im = false).

Definition AInv (s : st) (l : list msg) : Prop :=
  Agree (closed s) (eof_sent s) (in_map s) (gotc s) (gotr s) l.

Lemma Agree_wa cl es im gc gr l n : Agree cl es im gc gr l -> Agree cl es im gc gr (l ++ [MWa n]).
Proof. intros (e & c & S & F). exists e, c. split; [apply shape_wa, S|exact F]. Qed.

Lemma Agree_open cl im gc gr l :
  Agree cl false im gc gr l ->
  shape false false l /\ (cl = true -> im = false) /\ gc = false /\ (gr = true -> im = false).
Proof.
  intros (e & c & S & He & Hc & Hm & Hg & Hr).
  destruct e; [discriminate (He eq_refl)|]. destruct c; [now destruct (Hc eq_refl)|].
  destruct im, gc; intuition congruence.
Qed.

Lemma Agree_data im gc gr l m :
  isData m = true -> Agree false false im gc gr l -> Agree false false im gc gr (l ++ [m]).
Proof.
  intros Hm (S & F)%Agree_open. exists false, false.
  split; [apply shape_data; assumption|]. intuition congruence.
Qed.

Lemma Agree_eof cl im gc gr l : Agree cl false im gc gr l -> Agree cl true im gc gr (l ++ [MEof]).
Proof.
  intros (S & F)%Agree_open. exists true, false.
  split; [apply shape_eof, S|]. intuition congruence.
Qed.

Lemma Agree_close im gc gr l : Agree false true im gc gr l -> Agree true true im gc gr (l ++ [MClose]).
Proof.
  intros (e & c & S & He & Hc & Hm & Hg & Hr).
  destruct c; [now destruct (Hc eq_refl)|]. exists e, true.
  split; [apply shape_close, S|]. intuition congruence.
Qed.

(* _unlink: closed without a CLOSE, but out of the map *)
Lemma Agree_unlink cl es im gc gr l : Agree cl es im gc gr l -> Agree true es false gc gr l.
Proof.
  intros (e & c & S & He & Hc & Hm & Hg & Hr). exists e, c. intuition congruence.
Qed.

Lemma Agree_closeh cl es im gc gr l (gc' : bool) :
  (gc' = true -> gc = true \/ (cl = true /\ im = true)) ->
  Agree cl es im gc gr l -> Agree cl es false gc' true l.
Proof.
  intros G (e & c & S & He & Hc & Hm & Hg & Hr). exists e, c. intuition congruence.
Qed.

Definition SI (cl es im gc gr : bool) (l : list msg) : Prop :=
  (cnt isEof l <= 1)%nat /\
  (es = false -> cnt isEof l = 0%nat) /\
  (cnt isClose l <= 1)%nat /\
  (cl = false -> cnt isClose l = 0%nat) /\
  (cl = true -> im = true -> cnt isClose l = 1%nat /\ es = true) /\
  (gc = true -> cnt isClose l = 1%nat /\ cl = true /\ es = true /\ im = false) /\
  (gr = true -> im = false) /\
  nda_aux false l = true /\
  (existsb isEnd l = true -> es || cl = true) /\
  nea_aux false l = true /\
  (existsb isClose l = true -> es = true).

Definition SInv (s : st) (l : list msg) : Prop :=
  SI (closed s) (eof_sent s) (in_map s) (gotc s) (gotr s) l.

Lemma Agree_SI cl es im gc gr l : Agree cl es im gc gr l -> SI cl es im gc gr l.
Proof.
  intros (e & c & S & He & Hc & Hm & Hg & Hr).
  destruct (shape_sound e c l S) as (E1 & E2 & E3 & E4 & E5 & E6).
  unfold SI. rewrite E1, E2, E3, E4. clear S E1 E2 E3 E4.
  destruct e, c; cbn; intuition (subst; auto; congruence).
Qed.

Lemma SI_gotc cl es im gc gr l :
  SI cl es im gc gr l -> gc = true -> cnt isClose l = 1%nat /\ cl = true /\ es = true /\ im = false.
Proof. intros (_ & _ & _ & _ & _ & H & _). exact H. Qed.

(* [effect s cl es im gc gr ms]: from state [s] a critical section sets the flags to
   [cl es im gc gr] and produces the messages [ms]. *)
Inductive effect (s : st) : bool -> bool -> bool -> bool -> bool -> list msg -> Prop :=
| ef_quiet : effect s (closed s) (eof_sent s) (in_map s) (gotc s) (gotr s) []
| ef_wa n : closed s = false -> effect s (closed s) (eof_sent s) (in_map s) (gotc s) (gotr s) [MWa n]
| ef_data m : closed s = false -> eof_sent s = false -> isData m = true ->
    effect s (closed s) (eof_sent s) (in_map s) (gotc s) (gotr s) [m]
| ef_eof : eof_sent s = false -> effect s (closed s) true (in_map s) (gotc s) (gotr s) [MEof]
| ef_close : active s = true -> closed s = false ->
    effect s true true (in_map s) (gotc s) (gotr s) ((if eof_sent s then [] else [MEof]) ++ [MClose])
| ef_unlink : effect s true (eof_sent s) false (gotc s) (gotr s) []
(* the peer-CLOSE section: _close_internal, then out of the map and the ghosts set *)
| ef_closeh cl es ms :
    effect s cl es (in_map s) (gotc s) (gotr s) ms -> (active s = true -> cl = true) ->
    effect s cl es false (gotc s || (active s && in_map s)) true ms.

Definition effect_to (s s' : st) (ms : list msg) : Prop :=
  effect s (closed s') (eof_sent s') (in_map s') (gotc s') (gotr s') ms.

Lemma send_eof_effect s : effect_to s (fst (send_eof s)) (snd (send_eof s)).
Proof. unfold send_eof. destruct (eof_sent s) eqn:E; [exact (ef_quiet s)|apply (ef_eof s E)]. Qed.

Lemma close_internal_eq s :
  close_internal s =
  if negb (active s) || closed s then (s, [])
  else (set_closed (fst (send_eof s)), snd (send_eof s) ++ [MClose]).
Proof. unfold close_internal. now destruct (send_eof s). Qed.

Lemma close_internal_effect s : effect_to s (fst (close_internal s)) (snd (close_internal s)).
Proof.
  rewrite close_internal_eq.
  destruct (negb (active s) || closed s) eqn:E; [exact (ef_quiet s)|].
  apply orb_false_iff in E as [EA%negb_false_iff EC]. pose proof (ef_close s EA EC) as K.
  unfold effect_to, send_eof. destruct (eof_sent s) eqn:EE; cbn; rewrite ?EE; exact K.
Qed.

Lemma close_internal_frame s :
  let s' := fst (close_internal s) in
  in_map s' = in_map s /\ gotc s' = gotc s /\ gotr s' = gotr s /\
  (active s = true -> closed s' = true).
Proof.
  rewrite close_internal_eq. unfold send_eof.
  destruct (active s), (closed s) eqn:E, (eof_sent s); cbn; repeat split; auto; discriminate.
Qed.

Lemma reserve_effect ext n s :
  closed s = false -> eof_sent s = false ->
  effect_to s (o_st (reserve ext n s)) (o_msgs (reserve ext n s)).
Proof.
  intros EC EE. unfold reserve.
  match goal with |- context [if ?b then mkO _ _ _ _ else _] => destruct b end.
  - exact (ef_quiet s).
  - apply (ef_data s); auto. now destruct ext.
Qed.

Lemma send_cs_effect ext n s : effect_to s (o_st (send_cs ext n s)) (o_msgs (send_cs ext n s)).
Proof.
  unfold send_cs. destruct (closed s) eqn:EC; [exact (ef_quiet s)|].
  destruct (eof_sent s) eqn:EE; [exact (ef_quiet s)|]. cbn [orb].
  destruct (out_win s =? 0); [destruct (blocking s); exact (ef_quiet s)|].
  now apply reserve_effect.
Qed.

(* the blocking path: a woken writer re-tests closed / eof_sent before reserving *)
Lemma wake_cs_effect ext n s : effect_to s (o_st (wake_cs ext n s)) (o_msgs (wake_cs ext n s)).
Proof.
  unfold wake_cs.
  destruct (out_win s =? 0), (closed s || eof_sent s) eqn:E; try exact (ef_quiet s).
  apply orb_false_iff in E as [EC EE]. now apply reserve_effect.
Qed.

Lemma exec_effect o s : effect_to s (o_st (exec o s)) (o_msgs (exec o s)).
Proof.
  pose proof (send_eof_effect s) as HE. pose proof (close_internal_effect s) as HC.
  destruct o; cbn [exec]; try apply send_cs_effect; try exact (ef_quiet s);
    (* the peer's messages: only the channel lookup, the section itself is the continuation *)
    try (destruct (in_map s); exact (ef_quiet s)).
  - (* OClose *) destruct (negb (active s) || closed s); [exact (ef_quiet s)|].
    now destruct (close_internal s).
  - (* OShutdown *)
    destruct (how =? 1); [now destruct (send_eof s)|].
    destruct (how =? 0); [exact (ef_quiet s)|]. destruct (how =? 2); exact (ef_quiet s).
  - (* ORecv *)
    destruct (inbuf s =? 0); [destruct (pipe_closed s)|]; exact (ef_quiet s).
  - (* OStdinClose *) now destruct (send_eof s).
  - (* OUnlink *) destruct (closed s); exact (ef_quiet s).
  - (* KShutW *) now destruct (send_eof s).
  - (* KRecv: the WINDOW_ADJUST is only sent on an open channel *)
    unfold check_add_window. destruct (closed s) eqn:EC; [exact (ef_quiet s)|]. cbn [orb].
    destruct (eof_recv s || negb (active s)); [exact (ef_quiet s)|].
    destruct (in_sofar s + out <=? in_thresh s); [exact (ef_quiet s)|].
    destruct (0 <? in_sofar s + out); [exact (ef_wa s _ EC)|exact (ef_quiet s)].
  - (* KEof *) destruct (eof_recv s); exact (ef_quiet s).
  - (* KCloseH *)
    destruct (close_internal_frame s) as (F1 & F2 & F3 & F4).
    destruct (close_internal s) as [s' ms]. cbn [fst snd] in *.
    apply ef_closeh; [rewrite <- F1, <- F2, <- F3; exact HC|exact F4].
  - (* KFail *) now destruct (close_internal s).
  - (* KUnlink *) exact (ef_unlink s).
  - (* KBlocked *) apply wake_cs_effect.
Qed.

Lemma effect_Agree s cl es im gc gr ms l :
  effect s cl es im gc gr ms -> AInv s l -> Agree cl es im gc gr (l ++ ms).
Proof.
  unfold AInv. induction 1 as [|n EC|m EC EE Hm|EE|EA EC| |cl es ms _ IH Hcl]; intros H.
  - now rewrite app_nil_r.
  - apply Agree_wa, H.
  - rewrite EC, EE in *. now apply Agree_data.
  - rewrite EE in H. apply Agree_eof, H.
  - rewrite EC in H. destruct (eof_sent s) eqn:EE; cbn [app].
    + apply Agree_close, H.
    + change [MEof; MClose] with ([MEof] ++ [MClose]). rewrite app_assoc. apply Agree_close, Agree_eof, H.
  - rewrite app_nil_r. apply (Agree_unlink _ _ _ _ _ _ H).
  - refine (Agree_closeh _ _ _ _ _ _ _ _ (IH H)).
    intros [G|[A B]%andb_true_iff]%orb_true_iff; auto.
Qed.

Lemma effect_mono s cl es im gc gr ms :
  effect s cl es im gc gr ms ->
  (gotc s = true -> gc = true) /\ (gotr s = true -> gr = true) /\ (in_map s = false -> im = false).
Proof. destruct 1; repeat split; auto. now intros ->. Qed.

Lemma effect_dead s cl es im gc gr ms :
  effect s cl es im gc gr ms -> closed s = true -> eof_sent s = true ->
  ms = [] /\ cl = true /\ es = true.
Proof. induction 1; intros; auto; congruence. Qed.

Lemma effect_data s cl es im gc gr ms :
  effect s cl es im gc gr ms -> existsb isData ms = true -> closed s = false /\ eof_sent s = false.
Proof. induction 1; auto; try discriminate. now destruct (eof_sent s). Qed.

Lemma exec_dead o s :
  closed s = true -> eof_sent s = true ->
  o_msgs (exec o s) = [] /\ closed (o_st (exec o s)) = true /\ eof_sent (o_st (exec o s)) = true.
Proof. apply (effect_dead _ _ _ _ _ _ _ (exec_effect o s)). Qed.

Lemma exec_closeh s :
  gotr (o_st (exec KCloseH s)) = true /\
  (active s = true -> in_map s = true -> gotc (o_st (exec KCloseH s)) = true).
Proof.
  cbn [exec]. destruct (close_internal s). cbn. split; [reflexivity|]. intros -> ->. apply orb_true_r.
Qed.

Definition Inv (c : cfg) : Prop :=
  (forall p, (cnt p (wire c) + cnt p (pending c) = cnt p (ltr c))%nat) /\ SInv (sh c) (ltr c).

(* what the scheduler steps preserve; it gives [Inv] *)
Definition CInv (c : cfg) : Prop :=
  (forall p, (cnt p (wire c) + cnt p (pending c) = cnt p (ltr c))%nat) /\ AInv (sh c) (ltr c).

Lemma CInv_Inv c : CInv c -> Inv c.
Proof. intros [HP HA]. split; [exact HP|apply Agree_SI, HA]. Qed.

Lemma cstep_cases c t c' :
  cstep c t = Some c' ->
  (exists th m r, nth_error (thr c) t = Some th /\ pend th = m :: r /\
     c' = mkC (sh c) (upd t (mkT r (ops th) (res th)) (thr c)) (wire c ++ [m]) (ltr c)) \/
  (exists th o r, nth_error (thr c) t = Some th /\ pend th = [] /\ ops th = o :: r /\
     c' = mkC (o_st (exec o (sh c)))
              (upd t (mkT (o_msgs (exec o (sh c))) (o_k (exec o (sh c)) ++ r)
                          (res th ++ o_res (exec o (sh c)))) (thr c))
              (wire c) (ltr c ++ o_msgs (exec o (sh c)))).
Proof.
  unfold cstep. destruct (nth_error (thr c) t) as [th|] eqn:E; [|discriminate].
  destruct (pend th) as [|m r] eqn:EP.
  - destruct (ops th) as [|o r] eqn:EO; [discriminate|].
    destruct (negb (op_enabled o (sh c))); [discriminate|]. intros [= <-].
    right. exists th, o, r. auto.
  - intros [= <-]. left. exists th, m, r. auto.
Qed.

Lemma cstep_CInv c t c' : CInv c -> cstep c t = Some c' -> CInv c'.
Proof.
  intros [HP HS] [(th & m & r & E & EP & ->) | (th & o & r & E & EP & EO & ->)]%cstep_cases.
  - split; [|exact HS]. intros p. specialize (HP p).
    pose proof (cnt_pending_upd p _ _ _ (mkT r (ops th) (res th)) E) as U.
    unfold pending in *. cbn in *. rewrite EP in U. rewrite cnt_app. cbn in *. lia.
  - split; [|apply (effect_Agree _ _ _ _ _ _ _ _ (exec_effect o (sh c)) HS)].
    intros p. specialize (HP p).
    pose proof (cnt_pending_upd p _ _ _ (mkT (o_msgs (exec o (sh c))) (o_k (exec o (sh c)) ++ r)
                                            (res th ++ o_res (exec o (sh c)))) E) as U.
    unfold pending in *. cbn in *. rewrite EP in U. rewrite cnt_app. cbn in *. lia.
Qed.

Lemma crun_CInv s c c' : CInv c -> crun c s = Some c' -> CInv c'.
Proof. apply (run_invariant cstep CInv). intros c0 t c1. apply cstep_CInv. Qed.

Lemma init_CInv s progs : init_st s -> CInv (init_cfg s progs).
Proof.
  intros (Hc & He & Hgc & Hgr). split.
  - intros p. unfold pending; cbn. now induction progs.
  - unfold AInv; cbn. rewrite Hc, He, Hgc, Hgr. exists false, false.
    split; [constructor|]. intuition congruence.
Qed.

Lemma reach_CInv s progs sch c :
  init_st s -> crun (init_cfg s progs) sch = Some c -> CInv c.
Proof. intros Hi. apply crun_CInv, init_CInv, Hi. Qed.

Lemma reach_Inv s progs sch c :
  init_st s -> crun (init_cfg s progs) sch = Some c -> Inv c.
Proof. intros Hi H. apply CInv_Inv, (reach_CInv _ _ _ _ Hi H). Qed.

Lemma wire_le_ltr c p : Inv c -> (cnt p (wire c) <= cnt p (ltr c))%nat.
Proof. intros [HP _]. specialize (HP p). lia. Qed.

Definition Mono (P : st -> Prop) : Prop := forall o s, P s -> P (o_st (exec o s)).

Lemma crun_mono P s c c' : Mono P -> P (sh c) -> crun c s = Some c' -> P (sh c').
Proof.
  intros HM. apply (run_invariant cstep (fun c => P (sh c))).
  intros c0 t c1 HP [(th & m & r & _ & _ & ->) | (th & o & r & _ & _ & _ & ->)]%cstep_cases; cbn; auto.
Qed.

Lemma mono_gotc : Mono (fun s => gotc s = true).
Proof. intros o s. apply (effect_mono _ _ _ _ _ _ _ (exec_effect o s)). Qed.
Lemma mono_gotr : Mono (fun s => gotr s = true).
Proof. intros o s. apply (effect_mono _ _ _ _ _ _ _ (exec_effect o s)). Qed.
Lemma mono_unmapped : Mono (fun s => in_map s = false).
Proof. intros o s. apply (effect_mono _ _ _ _ _ _ _ (exec_effect o s)). Qed.

Lemma crun_dead s c c' :
  closed (sh c) = true -> eof_sent (sh c) = true -> crun c s = Some c' ->
  closed (sh c') = true /\ eof_sent (sh c') = true /\ ltr c' = ltr c.
Proof.
  intros H1 H2.
  apply (run_invariant cstep (fun c1 => closed (sh c1) = true /\ eof_sent (sh c1) = true /\ ltr c1 = ltr c));
    [|auto].
  intros c0 t c1 (D1 & D2 & <-) [(th & m & r & _ & _ & ->) | (th & o & r & _ & _ & _ & ->)]%cstep_cases;
    cbn; auto.
  destruct (exec_dead o _ D1 D2) as (-> & ? & ?). now rewrite app_nil_r.
Qed.

Lemma at_op_step c tid o c' :
  at_op c tid o -> cstep c tid = Some c' -> sh c' = o_st (exec o (sh c)).
Proof.
  intros (t & r & E & EP & EO). unfold cstep. rewrite E, EP, EO.
  destruct (negb (op_enabled o (sh c))); [discriminate|]. now intros [= <-].
Qed.

Lemma after_closeh s progs s1 c tid c' s2 c'' :
  init_st s -> crun (init_cfg s progs) s1 = Some c ->
  at_op c tid KCloseH -> cstep c tid = Some c' -> crun c' s2 = Some c'' ->
  Inv c' /\ Inv c'' /\ gotr (sh c'') = true /\
  (active (sh c) = true -> in_map (sh c) = true -> gotc (sh c') = true /\ gotc (sh c'') = true).
Proof.
  intros Hi H1 Hat Hs H2.
  pose proof (cstep_CInv _ _ _ (reach_CInv _ _ _ _ Hi H1) Hs) as I1.
  pose proof (at_op_step _ _ _ _ Hat Hs) as Esh. destruct (exec_closeh (sh c)) as [R G]. rewrite <- Esh in R, G.
  split; [apply CInv_Inv, I1|]. split; [apply CInv_Inv, (crun_CInv s2 c'); assumption|].
  split; [apply (crun_mono (fun s => gotr s = true) s2 c'); auto using mono_gotr|].
  intros Ha Hm. split; [|apply (crun_mono (fun s => gotc s = true) s2 c')]; auto using mono_gotc.
Qed.

Lemma released s progs s1 c tid c' s2 c'' :
  init_st s -> crun (init_cfg s progs) s1 = Some c ->
  at_op c tid KCloseH -> cstep c tid = Some c' -> crun c' s2 = Some c'' ->
  in_map (sh c'') = false /\
  (active (sh c) = true -> in_map (sh c) = true ->
     closed (sh c'') = true /\ eof_sent (sh c'') = true /\ ltr c'' = ltr c' /\
     forall p, (cnt p (wire c'') + cnt p (pending c'') = cnt p (wire c') + cnt p (pending c'))%nat).
Proof.
  intros Hi H1 Hat Hs H2.
  destruct (after_closeh _ _ _ _ _ _ _ _ Hi H1 Hat Hs H2) as ([HP1 HS1] & [HP2 HS2] & R & G).
  split; [apply HS2, R|]. intros Ha Hm. destruct (G Ha Hm) as [G1 _].
  destruct (SI_gotc _ _ _ _ _ _ HS1 G1) as (_ & D1 & D2 & _).
  destruct (crun_dead _ _ _ D1 D2 H2) as (D1' & D2' & E). repeat split; auto.
  intros p. rewrite HP1, HP2. now rewrite E.
Qed.
