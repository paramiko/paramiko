(* C34 — lemmas about the model of canonicalize: the shape of its result (canonicalize_shape), and what
   splitting, filtering and walking do to a path of that shape. *)
From PV Require Import Bytes ListFacts C34_gen C34.
From Coq Require Import ZArith List Bool Lia.
Import ListNotations.
Open Scope Z_scope.

Lemma clean_iff c :
  clean c = true <->
  is_empty c = false /\ is_dot c = false /\ is_dotdot c = false /\ no_slash c = true.
Proof.
  unfold clean. rewrite !andb_true_iff, !negb_true_iff. tauto.
Qed.

Lemma split_aux_app_slash a : forall cur t,
  split_aux cur (a ++ SLASH :: t) = split_aux cur a ++ split_aux [] t.
Proof.
  induction a as [|c a IH]; intros cur t; [reflexivity|].
  cbn [app split_aux]. destruct (c =? SLASH); [rewrite IH; reflexivity | apply IH].
Qed.

Lemma split_aux_no_slash_in x : forall cur, no_slash x = true -> split_aux cur x = [rev cur ++ x].
Proof.
  induction x as [|c x IH]; intros cur H; [cbn; now rewrite app_nil_r|].
  unfold no_slash in H. cbn [forallb] in H. apply andb_true_iff in H as [Hc Hx].
  cbn [split_aux]. destruct (c =? SLASH); [discriminate|].
  rewrite IH by exact Hx. cbn [rev]. now rewrite <- app_assoc.
Qed.

Lemma split_slash_join cs :
  forallb no_slash cs = true ->
  split_slash (join_slash cs) = match cs with [] => [[]] | _ => cs end.
Proof.
  destruct cs as [|x l]; [reflexivity|]. revert x.
  induction l as [|y l IH]; intros x H; cbn [forallb] in H; apply andb_true_iff in H as [Hx Hl].
  - apply (split_aux_no_slash_in x [] Hx).
  - change (join_slash (x :: y :: l)) with (x ++ SLASH :: join_slash (y :: l)).
    unfold split_slash in *. now rewrite split_aux_app_slash, (split_aux_no_slash_in x [] Hx), (IH y Hl).
Qed.

Lemma split_slash_cons s : split_slash (SLASH :: s) = [] :: split_slash s.
Proof. reflexivity. Qed.

Lemma no_slash_rev c : no_slash c = true -> no_slash (rev c) = true.
Proof. apply forallb_rev. Qed.

Lemma split_aux_no_slash s : forall cur,
  no_slash cur = true -> forallb no_slash (split_aux cur s) = true.
Proof.
  induction s as [|c s IH]; intros cur Hc; cbn [split_aux].
  - cbn. now rewrite no_slash_rev.
  - destruct (c =? SLASH) eqn:E.
    + cbn [forallb]. rewrite no_slash_rev by exact Hc. now apply IH.
    + apply IH. unfold no_slash. cbn [forallb]. now rewrite E.
Qed.

(* on an absolute path '..' is never pushed: the top of a clean stack is not '..' *)
Lemma norm_loop_clean cs : forall stk,
  forallb no_slash cs = true -> forallb clean stk = true ->
  forallb clean (norm_loop true cs stk) = true.
Proof.
  induction cs as [|c r IH]; intros stk Hcs Hstk; [exact Hstk|].
  cbn [forallb] in Hcs. apply andb_true_iff in Hcs as [Hc Hr].
  cbn [norm_loop].
  destruct (is_empty c || is_dot c) eqn:E1; [apply IH; assumption|].
  apply orb_false_iff in E1 as [Ee Ed].
  cbn [negb andb orb].
  assert (Hhd : negb (is_empty stk) && is_dotdot (hd [] stk) = false).
  { destruct stk as [|h stk']; [reflexivity|].
    cbn [forallb] in Hstk. apply andb_true_iff in Hstk as [Hh _].
    apply clean_iff in Hh as (_ & _ & Hh & _). exact Hh. }
  rewrite Hhd, !orb_false_r.
  destruct (is_dotdot c) eqn:Edd; cbn [negb]; (apply IH; [exact Hr|]).
  - destruct stk as [|h stk']; [reflexivity|].
    cbn [forallb] in Hstk. now apply andb_true_iff in Hstk as [_ Ht].
  - cbn [forallb]. rewrite Hstk, andb_true_r. now apply clean_iff.
Qed.

Lemma normpath_abs t :
  exists (k : nat) (cs : list comp),
    (k = 1 \/ k = 2)%nat /\ forallb clean cs = true /\
    normpath (SLASH :: t) = repeat SLASH k ++ join_slash cs.
Proof.
  unfold normpath.
  set (k := initial_slashes (SLASH :: t)).
  assert (Hk : (k = 1 \/ k = 2)%nat).
  { unfold k, initial_slashes. cbn [starts_with]. change (SLASH =? SLASH) with true. cbn [andb].
    destruct (_ && _); [right|left]; reflexivity. }
  assert (Hnz : negb (Nat.eqb k 0) = true) by (destruct Hk as [-> | ->]; reflexivity).
  rewrite Hnz.
  set (cs := rev (norm_loop true (split_slash (SLASH :: t)) [])).
  assert (Hcs : forallb clean cs = true).
  { unfold cs. apply forallb_rev. apply norm_loop_clean; [|reflexivity].
    apply split_aux_no_slash. reflexivity. }
  exists k, cs. split; [exact Hk|]. split; [exact Hcs|].
  cbv zeta. destruct Hk as [-> | ->]; reflexivity.
Qed.

Lemma canonicalize_shape p :
  exists (k : nat) (cs : list comp),
    (k = 1 \/ k = 2)%nat /\ forallb clean cs = true /\
    canonicalize p = repeat SLASH k ++ join_slash cs.
Proof.
  unfold canonicalize. destruct (isabs p) eqn:E; [|apply normpath_abs].
  destruct p as [|c t]; [discriminate|]. cbn [isabs] in E. apply Z.eqb_eq in E. subst c.
  apply normpath_abs.
Qed.

Lemma absolute p : exists t, canonicalize p = SLASH :: t.
Proof.
  destruct (canonicalize_shape p) as (k & cs & Hk & _ & ->).
  destruct Hk as [-> | ->]; cbn [repeat app]; eexists; reflexivity.
Qed.

Lemma comps_app_slash a t : comps (a ++ SLASH :: t) = comps a ++ comps t.
Proof. unfold comps, split_slash. rewrite split_aux_app_slash, filter_app. reflexivity. Qed.

Lemma comps_cons_slash t : comps (SLASH :: t) = comps t.
Proof. unfold comps. rewrite split_slash_cons. reflexivity. Qed.

Lemma comps_shape k cs :
  forallb clean cs = true -> comps (repeat SLASH k ++ join_slash cs) = cs.
Proof.
  intros Hcs. induction k as [|k IH]; cbn [repeat app]; [|now rewrite comps_cons_slash].
  assert (Hns : forallb no_slash cs = true /\ forallb (fun c => negb (is_empty c)) cs = true).
  { rewrite !forallb_forall. rewrite forallb_forall in Hcs.
    split; intros c Hc; apply Hcs, clean_iff in Hc as (E & _ & _ & N); [exact N | now rewrite E]. }
  unfold comps. rewrite (split_slash_join cs (proj1 Hns)).
  destruct cs; [reflexivity | apply filter_forallb_id, Hns].
Qed.

Lemma walk_app a : forall stk b, walk stk (a ++ b) = walk (walk stk a) b.
Proof.
  induction a as [|c a IH]; intros stk b; [reflexivity|].
  cbn [app walk]. destruct (is_dot c); [apply IH|]. destruct (is_dotdot c); apply IH.
Qed.

Lemma walk_clean b : forall stk, forallb clean b = true -> walk stk b = rev b ++ stk.
Proof.
  induction b as [|c b IH]; intros stk H; [reflexivity|].
  cbn [forallb] in H. apply andb_true_iff in H as [Hc Hb].
  apply clean_iff in Hc as (_ & Hd & Hdd & _).
  cbn [walk rev]. rewrite Hd, Hdd, IH by exact Hb. now rewrite <- app_assoc.
Qed.

Lemma realpath_reply_eq canon history p : realpath_reply canon history p = canon p.
Proof. unfold realpath_reply. destruct G_REALPATH_STATELESS; reflexivity. Qed.
