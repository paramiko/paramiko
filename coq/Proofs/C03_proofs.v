(* C03 -- proofs.  All statements are about the definitions of Gen/C03_gen.v (translated from the
   source on every run) through the thin wrappers of Model/C03.v. *)
From PV Require Import Bytes ListFacts C03_gen C03.
Open Scope Z_scope.

Lemma padding_range md len :
  0 < m_bs md -> 4 <= padding md len <= m_bs md + 3.
Proof.
  intros Hbs. unfold padding, c03_padding.
  pose proof (Z.mod_pos_bound (len + c03_addlen (m_etm md) (m_aead md)) (m_bs md) Hbs). lia.
Qed.

Lemma pad_byte_count md len :
  pad_byte md len = padding md len /\ pad_count md len = padding md len.
Proof. split; [reflexivity|]. unfold pad_count. now destruct (zero_pad md). Qed.

Lemma length_field_eq md len :
  length_field md len = 1 + len + padding md len /\ packet_len md len = 4 + length_field md len.
Proof.
  unfold packet_len. rewrite (proj2 (pad_byte_count md len)).
  unfold length_field, c03_length_field. lia.
Qed.

Lemma align_offset_eq md :
  align_offset md = if m_etm md || m_aead md then 4 else 0.
Proof. unfold align_offset, c03_enc_offset. now destruct (m_etm md), (m_aead md). Qed.

(* addlen counts what precedes the payload in the aligned portion and the minimum padding less one:
   (4 +) 1 + 3, hence the 8 of offset_addlen *)
Lemma offset_addlen md : align_offset md + c03_addlen (m_etm md) (m_aead md) = 8.
Proof. rewrite align_offset_eq. unfold c03_addlen. now destruct (m_etm md || m_aead md). Qed.

Lemma aligned_multiple md len :
  0 < m_bs md ->
  aligned_len md len = ((len + c03_addlen (m_etm md) (m_aead md)) / m_bs md + 1) * m_bs md.
Proof.
  intros Hbs. unfold aligned_len. destruct (length_field_eq md len) as [HL ->]. rewrite HL.
  unfold padding, c03_padding. pose proof (offset_addlen md).
  pose proof (Z.div_mod (len + c03_addlen (m_etm md) (m_aead md)) (m_bs md)). lia.
Qed.

Lemma alignment md len : 0 < m_bs md -> aligned_len md len mod m_bs md = 0.
Proof. intros Hbs. rewrite aligned_multiple by exact Hbs. apply Z_mod_mult. Qed.

Lemma aligned_at_least_one_block md len :
  0 < m_bs md -> 0 <= len -> m_bs md <= aligned_len md len.
Proof.
  intros Hbs Hlen. rewrite aligned_multiple by exact Hbs.
  assert (Ha : 0 <= len + c03_addlen (m_etm md) (m_aead md))
    by (unfold c03_addlen; destruct (m_etm md || m_aead md); lia).
  pose proof (Z.div_pos _ (m_bs md) Ha Hbs). nia.
Qed.

(* RFC 4253 section 6: multiple of max(8, block size) when 8 divides the block size *)
Lemma alignment_8 md len :
  0 < m_bs md -> m_bs md mod 8 = 0 -> aligned_len md len mod 8 = 0.
Proof.
  intros Hbs H8. rewrite aligned_multiple by exact Hbs.
  apply Z.mod_divide in H8 as [j ->]; [|lia]. rewrite Z.mul_assoc. apply Z_mod_mult.
Qed.

(* RFC 4253 section 6 minimum packet size 16 where the whole packet is aligned (clear / classic) *)
Lemma min_packet_16 md len :
  0 < m_bs md -> m_bs md mod 8 = 0 -> 0 <= len -> m_etm md || m_aead md = false ->
  16 <= packet_len md len.
Proof.
  intros Hbs H8 Hlen Hm.
  pose proof (alignment_8 md len Hbs H8) as Ha.
  pose proof (padding_range md len Hbs) as Hp.
  destruct (length_field_eq md len) as [HL HP].
  unfold aligned_len in Ha. rewrite align_offset_eq, Hm in Ha.
  apply Z.mod_divide in Ha as [k Hk]; lia.
Qed.

(* with the length field excluded (EtM / AEAD) the packet is 4 + at least one block: 12 bytes for an
   8-byte block cipher, i.e. it CAN be shorter than the 16 bytes RFC 4253 section 6 asks for *)
Lemma min_packet_excl md len :
  0 < m_bs md -> 0 <= len -> m_etm md || m_aead md = true -> 4 + m_bs md <= packet_len md len.
Proof.
  intros Hbs Hlen Hm. pose proof (aligned_at_least_one_block md len Hbs Hlen) as Ha.
  unfold aligned_len in Ha. rewrite align_offset_eq, Hm in Ha. lia.
Qed.

Lemma frame_ok md len :
  8 <= m_bs md <= 252 -> m_bs md mod 8 = 0 -> 0 <= len ->
  4 <= padding md len <= 255 /\ padding md len <= m_bs md + 3 /\
  pad_byte md len = padding md len /\ pad_count md len = padding md len /\
  length_field md len = 1 + len + padding md len /\
  packet_len md len = 4 + length_field md len /\
  aligned_len md len = packet_len md len - (if m_etm md || m_aead md then 4 else 0) /\
  aligned_len md len mod m_bs md = 0 /\ aligned_len md len mod 8 = 0 /\
  m_bs md <= aligned_len md len.
Proof.
  intros Hbs H8 Hlen.
  pose proof (padding_range md len ltac:(lia)).
  destruct (pad_byte_count md len). destruct (length_field_eq md len).
  pose proof (alignment md len ltac:(lia)). pose proof (alignment_8 md len ltac:(lia) H8).
  pose proof (aligned_at_least_one_block md len ltac:(lia) Hlen).
  repeat split; try lia; try assumption.
  unfold aligned_len. now rewrite align_offset_eq.
Qed.

Lemma tag_len_by_branch md digest atag :
  tag_len md digest atag =
  match branch_of md with
  | BClear => 0
  | BAead => atag
  | BEtm | BClassic => if m_aead md then 0 else Z.min digest (m_mac md)
  end.
Proof.
  unfold tag_len, mac_len, branch_of, c03_mac_appended, c03_mac_trunc.
  destruct (m_enc md), (m_etm md), (m_aead md); cbn; lia.
Qed.

Lemma tables_ok_true : tables_ok = true.
Proof. vm_compute. reflexivity. Qed.

Lemma cipher_in_ok c : In c c03_cipher_table -> 8 <= ci_bs c <= 252 /\ ci_bs c mod 8 = 0.
Proof.
  intros Hin.
  assert (H : forallb cipher_ok c03_cipher_table = true) by (vm_compute; reflexivity).
  rewrite forallb_forall in H. specialize (H c Hin).
  unfold cipher_ok in H. lia.
Qed.

Lemma mac_in_ok m : In m c03_mac_table -> 0 < ma_size m <= ma_digest m.
Proof.
  intros Hin.
  assert (H : forallb mac_ok c03_mac_table = true) by (vm_compute; reflexivity).
  rewrite forallb_forall in H. specialize (H m Hin).
  unfold mac_ok in H. lia.
Qed.

(* the 16 for atag is a premise: the AEAD engine appends 16 bytes *)
Lemma tag_len_negotiated c m :
  In m c03_mac_table ->
  tag_len (negotiated c m) (ma_digest m) 16 = if ci_aead c then 16 else ma_size m.
Proof.
  intros Hm. pose proof (mac_in_ok m Hm). rewrite tag_len_by_branch.
  unfold negotiated, branch_of, c03_etm_of, c03_mac_size_arg. cbn [m_enc m_etm m_aead m_mac].
  destruct (ci_aead c), (ma_etm m); cbn; lia.
Qed.

Lemma negotiated_excl c m :
  m_etm (negotiated c m) || m_aead (negotiated c m) = ci_aead c || ma_etm m.
Proof. unfold negotiated, c03_etm_of. cbn [m_etm m_aead]. now destruct (ci_aead c), (ma_etm m). Qed.

Lemma mac_entry_rfc m sz etm :
  In m c03_mac_table -> assoc (ma_name m) rfc_macs = Some (sz, etm) -> ma_size m = sz /\ ma_etm m = etm.
Proof.
  intros Hin Ha.
  assert (H : forallb mac_matches_rfc c03_mac_table = true) by (vm_compute; reflexivity).
  rewrite forallb_forall in H. specialize (H m Hin).
  unfold mac_matches_rfc in H.
  rewrite Ha, andb_true_iff, Z.eqb_eq, eqb_true_iff in H. exact H.
Qed.

Lemma cipher_entry_rfc c bs aead :
  In c c03_cipher_table -> assoc (ci_name c) rfc_ciphers = Some (bs, aead) -> ci_bs c = bs /\ ci_aead c = aead.
Proof.
  intros Hin Ha.
  assert (H : forallb cipher_matches_rfc c03_cipher_table = true) by (vm_compute; reflexivity).
  rewrite forallb_forall in H. specialize (H c Hin).
  unfold cipher_matches_rfc in H.
  rewrite Ha, andb_true_iff, Z.eqb_eq, eqb_true_iff in H. exact H.
Qed.

Definition wire_body (E : engines) (md : mode) (packet : list Z) : list Z :=
  let off := Z.to_nat (align_offset md) in
  match branch_of md with
  | BClear => packet
  | BEtm | BClassic => firstn off packet ++ e_cipher E (skipn off packet)
  | BAead => firstn off packet ++
             e_aead E (skipn off packet) (firstn (Z.to_nat c03_aead_aad_len) packet)
  end.
Definition wire_mac (E : engines) (md : mode) (seq : Z) (packet : list Z) : list Z :=
  if c03_mac_appended (m_enc md) (m_aead md)
  then firstn (Z.to_nat (c03_mac_trunc (m_mac md)))
              (e_hmac E (be_encode 4 seq ++
                         (if c03_mac_over_ciphertext (m_etm md) then wire_body E md packet else packet)))
  else [].

Lemma send_wire_eq E md seq payload :
  send_wire E md seq payload =
  bind (build_packet E md payload) (fun packet => Ok (wire_body E md packet ++ wire_mac E md seq packet)).
Proof. reflexivity. Qed.

Lemma wire_clear E md seq packet :
  m_enc md = false -> wire_body E md packet = packet /\ wire_mac E md seq packet = [].
Proof. unfold wire_body, wire_mac, branch_of. now intros ->. Qed.

Lemma wire_prefix E md packet mac :
  m_enc md = false \/ m_etm md || m_aead md = true -> (4 <= length packet)%nat ->
  firstn 4 (wire_body E md packet ++ mac) = firstn 4 packet.
Proof.
  intros [Hc|Hc] Hl; [rewrite (proj1 (wire_clear E md 0 packet Hc)); now apply firstn_app_le|].
  unfold wire_body. rewrite align_offset_eq, Hc. change (Z.to_nat 4) with 4%nat.
  destruct (branch_of md); [now apply firstn_app_le|..];
    now rewrite <- app_assoc, firstn_app_le, firstn_firstn by (rewrite firstn_length; lia).
Qed.

Section Wire.
  Variable E : engines.
  Variables digest atag : Z.
  Hypothesis cipher_len : forall x, length (e_cipher E x) = length x.
  Hypothesis aead_len : forall x a, Z.of_nat (length (e_aead E x a)) = Z.of_nat (length x) + atag.
  Hypothesis hmac_len : forall x, Z.of_nat (length (e_hmac E x)) = digest.
  Hypothesis rnd_len : forall n, 0 <= n -> Z.of_nat (length (e_rnd E n)) = n.

  Lemma build_packet_shape md payload packet :
    0 < m_bs md ->
    build_packet E md payload = Ok packet ->
    let len := Z.of_nat (length payload) in
    exists pad,
      packet = be_encode 4 (length_field md len) ++ [pad_byte md len] ++ payload ++ pad /\
      Z.of_nat (length pad) = padding md len /\
      0 <= length_field md len < 2 ^ 32 /\
      Z.of_nat (length packet) = packet_len md len.
  Proof.
    intros Hbs Hb len. unfold build_packet in Hb. fold len in Hb.
    fold (length_field md len) in Hb. fold (pad_byte md len) in Hb.
    destruct (u32_ok (length_field md len) && u8_ok (pad_byte md len)) eqn:Hok; [|discriminate].
    injection Hb as Hb. subst packet. unfold u32_ok in Hok.
    pose proof (padding_range md len Hbs). pose proof (rnd_len (padding md len) ltac:(lia)).
    unfold packet_len, pad_count, c03_padcount_zero, c03_padcount_random.
    destruct (zero_pad md); eexists; (split; [reflexivity|]); cbn [length];
      rewrite app_length, ?repeat_length; lia.
  Qed.

  Lemma wire_body_length md packet :
    Z.of_nat (length (wire_body E md packet)) =
    Z.of_nat (length packet) + match branch_of md with BAead => atag | _ => 0 end.
  Proof.
    unfold wire_body.
    pose proof (f_equal (@length Z) (firstn_skipn (Z.to_nat (align_offset md)) packet)) as Hs.
    rewrite app_length in Hs.
    destruct (branch_of md); rewrite ?app_length, ?Nat2Z.inj_add, ?cipher_len, ?aead_len; lia.
  Qed.

  Lemma wire_mac_length md seq packet :
    0 <= m_mac md -> Z.of_nat (length (wire_mac E md seq packet)) = mac_len md digest.
  Proof.
    intros Hmac. unfold wire_mac, mac_len, c03_mac_trunc.
    destruct (c03_mac_appended (m_enc md) (m_aead md)); [|reflexivity].
    rewrite firstn_length, Nat2Z.inj_min, hmac_len. lia.
  Qed.

  Lemma send_wire_layout md seq payload wire :
    0 < m_bs md -> 0 <= m_mac md ->
    send_wire E md seq payload = Ok wire ->
    let len := Z.of_nat (length payload) in
    Z.of_nat (length wire) = 4 + length_field md len + tag_len md digest atag /\
    Z.of_nat (length wire) = wire_len md digest atag len /\
    (m_enc md = false \/ m_etm md || m_aead md = true ->
       firstn 4 wire = be_encode 4 (length_field md len) /\ be_decode (firstn 4 wire) = length_field md len) /\
    (m_enc md = false ->
       exists pad, wire = be_encode 4 (length_field md len) ++ [padding md len] ++ payload ++ pad /\
                   Z.of_nat (length pad) = padding md len).
  Proof.
    intros Hbs Hmac Hs len. rewrite send_wire_eq in Hs.
    destruct (build_packet E md payload) as [packet|e] eqn:Hb; [|discriminate]. injection Hs as <-.
    destruct (build_packet_shape md payload packet Hbs Hb) as (pad & Hpk & Hpad & HL & Hlenp).
    fold len in Hpk, Hpad, HL, Hlenp.
    assert (Hwl : Z.of_nat (length (wire_body E md packet ++ wire_mac E md seq packet))
                  = wire_len md digest atag len).
    { rewrite app_length, Nat2Z.inj_add, wire_body_length, wire_mac_length, Hlenp by assumption.
      unfold wire_len, tag_len. destruct (branch_of md); lia. }
    assert (Hfirst : m_enc md = false \/ m_etm md || m_aead md = true ->
                     firstn 4 (wire_body E md packet ++ wire_mac E md seq packet)
                     = be_encode 4 (length_field md len)).
    { intros Hc. rewrite wire_prefix by (trivial; rewrite Hpk, app_length, be_encode_length; lia).
      rewrite Hpk. now rewrite firstn_app_le, firstn_all2 by (rewrite be_encode_length; lia). }
    split; [|split; [exact Hwl | split]].
    - rewrite Hwl. unfold wire_len. destruct (length_field_eq md len). lia.
    - intros Hc. rewrite (Hfirst Hc). split; [reflexivity|]. now apply be_decode_encode.
    - intros Hc. exists pad. destruct (wire_clear E md seq packet Hc) as [-> ->].
      rewrite app_nil_r. split; [exact Hpk | exact Hpad].
  Qed.
End Wire.
