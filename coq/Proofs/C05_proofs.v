(* C05 - in both roles every agreed list is the client's offer filtered by the server's (agreed_spec),
   and negotiate takes the head of each of the eight or raises (negotiate_cases): from these two come
   first-common, the symmetry of the two sides, and the outcomes.  At the end, the index loop with which
   the source strips the markers is shown to be the filter the model uses (strip_loop_eq). *)
From PV Require Import Bytes ListFacts C05_gen C05.
Open Scope Z_scope.

Lemma mem_In x l : mem x l = true <-> In x l.
Proof. apply (existsb_eqb_In zlist_eqb_eq). Qed.

Lemma mem_false x l : mem x l = false <-> ~ In x l.
Proof. apply (existsb_eqb_nIn zlist_eqb_eq). Qed.

Lemma strip_In x l : In x (strip_markers l) <-> In x l /\ is_marker x = false.
Proof. unfold strip_markers. rewrite filter_In, negb_true_iff. tauto. Qed.

Lemma mem_strip x l : mem x (strip_markers l) = mem x l && negb (is_marker x).
Proof.
  apply eq_iff_eq_true. rewrite andb_true_iff, negb_true_iff, !mem_In, strip_In. tauto.
Qed.

Lemma filter_alg_In x p d : In x (filter_alg p d) <-> In x p /\ ~ In x d.
Proof. unfold filter_alg. rewrite filter_In, negb_true_iff, mem_false. tauto. Qed.

Lemma first_common_spec cl sl x :
  first_common cl sl = Some x <->
  exists pre post, cl = pre ++ x :: post /\ In x sl /\ forall y, In y pre -> ~ In y sl.
Proof.
  unfold first_common. rewrite hd_filter_find, find_split.
  setoid_rewrite mem_In. setoid_rewrite mem_false. reflexivity.
Qed.

Lemma first_common_none cl sl :
  first_common cl sl = None <-> forall x, In x cl -> ~ In x sl.
Proof.
  unfold first_common. rewrite hd_filter_find, find_none_iff.
  setoid_rewrite mem_false. reflexivity.
Qed.

Lemma strip_markers_app a b : strip_markers (a ++ b) = strip_markers a ++ strip_markers b.
Proof. apply filter_app. Qed.

Lemma strip_kex_markers r c : strip_markers (kex_markers r c) = [].
Proof. unfold kex_markers. destruct r, (strict c); vm_compute; reflexivity. Qed.

Lemma offer_kex_adv r c : offer CKex (advertised r c) = strip_markers (kex_after_send r c).
Proof.
  cbn [offer advertised ki_kex]. rewrite strip_markers_app, strip_kex_markers, app_nil_r. reflexivity.
Qed.

Lemma filter_strip_r l q :
  filter (fun x => mem x (strip_markers l)) (strip_markers q) =
  filter (fun x => mem x (strip_markers l)) q.
Proof.
  change (strip_markers q) with (filter (fun x => negb (is_marker x)) q).
  rewrite filter_filter. apply filter_ext. intros x. rewrite mem_strip.
  destruct (is_marker x), (mem x l); reflexivity.
Qed.

Lemma filter_strip_l p q :
  filter (fun x => mem x p) (strip_markers q) =
  filter (fun x => mem x (strip_markers p)) (strip_markers q).
Proof.
  apply filter_ext_in. intros x Hx. apply strip_In in Hx as [_ Hm].
  rewrite mem_strip, Hm. cbn. rewrite andb_true_r. reflexivity.
Qed.

Lemma agreed_spec r c peer cat :
  agreed r c peer cat =
  filter (fun x => mem x (offer cat (server_msg r c peer))) (offer cat (client_msg r c peer)).
Proof.
  unfold agreed, agree. destruct r; cbn [client_msg server_msg].
  - destruct cat; try reflexivity.
    cbn [mine]. rewrite offer_kex_adv. cbn [offer]. symmetry. apply filter_strip_r.
  - destruct cat; try reflexivity.
    cbn [mine]. rewrite offer_kex_adv. cbn [offer]. apply filter_strip_l.
Qed.

Lemma agreed_sym C S cat :
  agreed Server S (advertised Client C) cat = agreed Client C (advertised Server S) cat.
Proof. rewrite !agreed_spec. reflexivity. Qed.

Lemma agree_in_mine r m t x : In x (agree r m t) -> In x m.
Proof.
  destruct r; cbn; rewrite filter_In.
  - tauto.
  - intros [_ H]. apply mem_In. exact H.
Qed.

Lemma agreed_hostkey_available c peer x :
  In x (agreed Server c peer CHostKey) -> In x (server_keys c).
Proof.
  intros H. unfold agreed in H. apply agree_in_mine in H. cbn [mine local_keys] in H.
  unfold available_server_keys in H. apply filter_In in H as [_ H]. now apply mem_In.
Qed.

Lemma key_not_missing r c peer hk t :
  agreed r c peer CHostKey = hk :: t -> server_key_missing r c hk = false.
Proof.
  destruct r; [reflexivity|]. intros H. cbn [server_key_missing].
  apply negb_false_iff, mem_In, (agreed_hostkey_available c peer). rewrite H. now left.
Qed.

Lemma kex_after_send_sub r c x :
  In x (kex_after_send r c) -> In x (p_kex c) /\ ~ In x (d_kex c).
Proof.
  destruct r; cbn [kex_after_send].
  - unfold preferred_kex. apply filter_alg_In.
  - destruct (negb (have_moduli c) && existsb is_gex (preferred_kex c)).
    + rewrite filter_alg_In, filter_In. tauto.
    + unfold preferred_kex. apply filter_alg_In.
Qed.

Lemma mine_allowed r c cat x : In x (mine r c cat) -> allowed c cat x.
Proof.
  destruct cat; cbn [mine allowed]; unfold enabled;
    try (unfold preferred_ciphers, preferred_macs, preferred_compression; apply filter_alg_In).
  - apply kex_after_send_sub.
  - intros H.
    assert (Hp : In x (preferred_keys c)).
    { destruct r; cbn [local_keys] in H; [exact H|].
      unfold available_server_keys in H. apply filter_In in H. tauto. }
    unfold preferred_keys in Hp. apply in_app_or in Hp as [Hp|Hp].
    + left. apply filter_alg_In. exact Hp.
    + right. apply in_map_iff in Hp as [b [Hb Hi]]. exists b. split; [|auto].
      apply filter_alg_In. exact Hi.
Qed.

Arguments agreed : simpl never.

Ltac fail_at cat E := left; exists cat; split; [exact E | reflexivity].

Lemma negotiate_cases r c peer :
  (exists cat, agreed r c peer cat = [] /\ negotiate r c peer = Raise IncompatiblePeer) \/
  (exists a, negotiate r c peer = Ok a /\
             forall cat, hd_error (agreed r c peer cat) = Some (chosen r cat a)) \/
  (exists k, hd_error (agreed r c peer CKex) = Some k /\ mem k kex_info_keys = false /\
             negotiate r c peer = Raise KeyErr).
Proof.
  unfold negotiate. set (ag := agreed r c peer).
  destruct (ag CKex) as [|k tk] eqn:E1; [fail_at CKex E1|].
  cbn [first_or_fail bind].
  destruct (mem k kex_info_keys) eqn:Ek; cbn [negb]; [|right; right; now exists k].
  destruct (ag CHostKey) as [|hk th] eqn:E2; [fail_at CHostKey E2|].
  cbn [first_or_fail bind]. rewrite (key_not_missing r c peer hk th E2).
  destruct (ag (local_cat r Enc)) as [|e1 t1] eqn:E3; [fail_at (local_cat r Enc) E3|].
  destruct (ag (remote_cat r Enc)) as [|e2 t2] eqn:E4; [fail_at (remote_cat r Enc) E4|].
  cbn [both_or_fail bind].
  destruct (ag (local_cat r Mac)) as [|m1 u1] eqn:E5; [fail_at (local_cat r Mac) E5|].
  destruct (ag (remote_cat r Mac)) as [|m2 u2] eqn:E6; [fail_at (remote_cat r Mac) E6|].
  cbn [both_or_fail bind].
  destruct (ag (local_cat r Comp)) as [|z1 v1] eqn:E7; [fail_at (local_cat r Comp) E7|].
  destruct (ag (remote_cat r Comp)) as [|z2 v2] eqn:E8; [fail_at (remote_cat r Comp) E8|].
  cbn [both_or_fail bind fst snd].
  right; left. eexists. split; [reflexivity|].
  destruct r; cbn [local_cat remote_cat c2s s2c] in *; intros cat; destruct cat;
    match goal with E : ?l = _ |- hd_error ?l = _ => now rewrite E end.
Qed.

Lemma negotiate_ok r c peer a :
  negotiate r c peer = Ok a ->
  forall cat, hd_error (agreed r c peer cat) = Some (chosen r cat a).
Proof.
  intros H.
  destruct (negotiate_cases r c peer) as [[cat' [_ E]]|[[a' [E Hc]]|[k [_ [_ E]]]]]; try congruence.
Qed.

Lemma negotiate_first_common r c peer a :
  negotiate r c peer = Ok a ->
  forall cat,
    first_common (offer cat (client_msg r c peer)) (offer cat (server_msg r c peer))
    = Some (chosen r cat a).
Proof.
  intros H cat. unfold first_common. rewrite <- agreed_spec. apply negotiate_ok. exact H.
Qed.

Lemma symmetric C S :
  negotiate Server S (advertised Client C) = swap_result (negotiate Client C (advertised Server S)).
Proof.
  cbv beta iota zeta delta [negotiate local_cat remote_cat c2s s2c].
  rewrite !agreed_sym. set (ag := agreed Client C (advertised Server S)).
  destruct (ag CKex) as [|k tk]; [reflexivity|].
  cbn [first_or_fail bind swap_result].
  destruct (mem k kex_info_keys); cbn [negb swap_result]; [|reflexivity].
  destruct (ag CHostKey) as [|hk th] eqn:E2; [reflexivity|].
  cbn [first_or_fail bind swap_result].
  rewrite (key_not_missing Server S (advertised Client C) hk th) by (rewrite agreed_sym; exact E2).
  cbn [server_key_missing].
  destruct (ag CEncC2S) as [|e1 t1], (ag CEncS2C) as [|e2 t2]; try reflexivity.
  cbn [both_or_fail bind swap_result].
  destruct (ag CMacC2S) as [|m1 u1], (ag CMacS2C) as [|m2 u2]; try reflexivity.
  cbn [both_or_fail bind swap_result].
  destruct (ag CCompC2S) as [|z1 v1], (ag CCompS2C) as [|z2 v2]; reflexivity.
Qed.

Lemma negotiate_allowed r c peer a :
  negotiate r c peer = Ok a -> forall cat, allowed c cat (chosen r cat a).
Proof.
  intros H cat. apply (mine_allowed r). apply (agree_in_mine r _ (offer cat peer)).
  apply hd_error_In. exact (negotiate_ok r c peer a H cat).
Qed.

Lemma subset_b_In l t x : subset_b l t = true -> In x l -> In x t.
Proof.
  unfold subset_b. rewrite forallb_forall. intros H Hx. apply mem_In. auto.
Qed.

Lemma outcomes r c peer :
  subset_b (p_kex c) kex_info_keys = true ->
  (exists a, negotiate r c peer = Ok a) \/ negotiate r c peer = Raise IncompatiblePeer.
Proof.
  intros Hk.
  destruct (negotiate_cases r c peer) as [[cat [_ E]]|[[a [E _]]|[k [Hh [Hm _]]]]]; eauto.
  exfalso. apply mem_false in Hm. apply Hm. apply (subset_b_In _ _ _ Hk).
  apply hd_error_In in Hh. apply agree_in_mine in Hh. cbn [mine] in Hh.
  apply kex_after_send_sub in Hh. tauto.
Qed.

Lemma tables_no_marker :
  forallb (fun b => negb (is_marker b)) kex_info_keys = true /\
  forallb (fun b => negb (is_marker b) && negb (is_marker (b ++ lit_cert_suffix))) key_info_keys = true /\
  forallb (fun b => negb (is_marker b)) cipher_info_keys = true /\
  forallb (fun b => negb (is_marker b)) mac_info_keys = true /\
  forallb (fun b => negb (is_marker b)) compression_info_keys = true.
Proof. repeat split; vm_compute; reflexivity. Qed.

Lemma table_member_no_marker l t x :
  forallb (fun b => negb (is_marker b)) t = true ->
  subset_b l t = true -> In x l -> is_marker x = false.
Proof.
  intros Ht Hs Hx. rewrite forallb_forall in Ht. apply negb_true_iff. apply Ht.
  exact (subset_b_In _ _ _ Hs Hx).
Qed.

(* The index loop of the source removes exactly the markers: to_pop holds their indices in
   descending order, so popping one does not shift those still to be popped. *)
Fixpoint marker_idxs (i : nat) (l : list name) : list nat :=
  match l with
  | [] => []
  | x :: r => if is_marker x then i :: marker_idxs (S i) r else marker_idxs (S i) r
  end.

Lemma to_pop_loop_spec l : forall i acc, to_pop_loop i l acc = rev (marker_idxs i l) ++ acc.
Proof.
  induction l as [|x r IH]; intros i acc; cbn; [reflexivity|].
  rewrite IH. destruct (is_marker x); cbn; [|reflexivity].
  rewrite <- app_assoc. reflexivity.
Qed.

Lemma pop_all_app a : forall b l,
  pop_all (a ++ b) l = match pop_all a l with Some l' => pop_all b l' | None => None end.
Proof.
  induction a as [|i a IH]; intros b l; cbn; [reflexivity|].
  destruct (pop_at i l); [apply IH|reflexivity].
Qed.

Lemma pop_at_app pre x t : pop_at (length pre) (pre ++ x :: t) = Some (pre ++ t).
Proof. induction pre as [|p pre IH]; cbn; [reflexivity|]. rewrite IH. reflexivity. Qed.

Lemma pop_desc l : forall pre,
  pop_all (rev (marker_idxs (length pre) l)) (pre ++ l) = Some (pre ++ strip_markers l).
Proof.
  induction l as [|x r IH]; intros pre; [reflexivity|].
  assert (E : pre ++ x :: r = (pre ++ [x]) ++ r) by (rewrite <- app_assoc; reflexivity).
  assert (L : S (length pre) = length (pre ++ [x])) by (rewrite app_length; cbn; lia).
  cbn [marker_idxs strip_markers filter]. destruct (is_marker x) eqn:M; cbn [negb].
  - cbn [rev]. rewrite pop_all_app, E, L, IH. cbn [pop_all].
    rewrite <- app_assoc. cbn [app]. rewrite pop_at_app. reflexivity.
  - rewrite E, L, IH. rewrite <- app_assoc. reflexivity.
Qed.

Lemma strip_loop_eq l : strip_markers_loop l = Some (strip_markers l).
Proof.
  unfold strip_markers_loop. rewrite to_pop_loop_spec, app_nil_r. exact (pop_desc l []).
Qed.

(* the behaviour before the repair: a client that prefers the group-exchange methods, and a
   server without a modulus pack *)
Definition gex_first : list name :=
  filter is_gex pref_kex ++ filter (fun k => negb (is_gex k)) pref_kex.
Definition wit_client : config :=
  mkConfig gex_first pref_keys pref_ciphers pref_macs pref_compression [] [] [] [] [] [] false true.
Definition wit_server : config := default_cfg pref_keys false true.
