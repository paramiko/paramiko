(* C07 -- what negotiate_hostkey returns is a member of preferred_keys, whose base name is an enabled
   default name (preferred_keys_base); verify_key and server_pubkey return a key only after comparing
   the algorithm the signature names with the negotiated / declared one, and the primitive was asked
   under that name's hash (verify_key_ok, client_accept, server_accept).  Where only "ssh-rsa" selects
   SHA-1, as in the generated default tuples, disabling it rules SHA-1 out (rsa_sha1_disabled). *)
From PV Require Import Bytes ListFacts C07_gen C07.
Open Scope Z_scope.

Lemma neq_eq a b : neq a b = true <-> a = b.
Proof. apply zlist_eqb_eq. Qed.

Lemma mem_In x l : mem x l = true <-> In x l.
Proof. apply (existsb_eqb_In neq_eq). Qed.

Lemma mem_false x l : mem x l = false <-> ~ In x l.
Proof. apply (existsb_eqb_nIn neq_eq). Qed.

Lemma filter_algorithm_In x d dis :
  In x (filter_algorithm d dis) <-> In x d /\ ~ In x dis.
Proof.
  unfold filter_algorithm. rewrite filter_In, negb_true_iff, mem_false. tauto.
Qed.

Lemma names_plain_In d y :
  names_plain d = true -> In y d ->
  strip_cert y = y /\ strip_cert (y ++ c07_cert_suffix) = y.
Proof.
  unfold names_plain. rewrite forallb_forall. intros H Hy.
  specialize (H y Hy). now rewrite andb_true_iff, !neq_eq in H.
Qed.

Lemma preferred_keys_base d dis x :
  names_plain d = true -> In x (preferred_keys d dis) ->
  In (strip_cert x) d /\ ~ In (strip_cert x) dis.
Proof.
  intros Hp Hx. unfold preferred_keys in Hx. apply in_app_or in Hx as [Hx | Hx].
  - apply filter_algorithm_In in Hx as [Hd Hn].
    destruct (names_plain_In d x Hp Hd) as [E _]. rewrite E. split; assumption.
  - apply in_map_iff in Hx as [y [Ey Hy]]. subst x.
    apply filter_algorithm_In in Hy as [Hd Hn].
    destruct (names_plain_In d y Hp Hd) as [_ E]. rewrite E. split; assumption.
Qed.

Lemma negotiate_first d dis sl x :
  negotiate_hostkey d dis sl = Ok x ->
  exists pre post, preferred_keys d dis = pre ++ x :: post /\ In x sl /\ forall y, In y pre -> ~ In y sl.
Proof.
  unfold negotiate_hostkey. intros H.
  assert (F : find (fun x => mem x sl) (preferred_keys d dis) = Some x).
  { rewrite <- hd_filter_find. destruct (filter _ _); [discriminate | now injection H as ->]. }
  apply find_split in F. setoid_rewrite mem_In in F. setoid_rewrite mem_false in F. exact F.
Qed.

Lemma negotiate_In d dis sl x :
  negotiate_hostkey d dis sl = Ok x -> In x (preferred_keys d dis) /\ In x sl.
Proof.
  intros H. destruct (negotiate_first d dis sl x H) as (pre & post & -> & Hx & _).
  split; [apply in_elt | exact Hx].
Qed.

Section Verify.
  Variable pv : Z -> Z -> list Z -> list Z -> bool.

  Lemma verify_ssh_sig_true k data sg :
    verify_ssh_sig pv k data sg = true ->
    exists h, sig_hash k (s_alg sg) = Some h /\ pv (pk_id k) h data (s_sig sg) = true.
  Proof.
    unfold verify_ssh_sig. destruct (sig_hash k (s_alg sg)) as [h|]; [|discriminate]. now exists h.
  Qed.

  Lemma verify_key_ok neg b H sg key :
    verify_key pv neg b H sg = Ok key ->
    s_alg sg = strip_cert neg /\
    exists h, sig_hash key (s_alg sg) = Some h /\ pv (pk_id key) h H (s_sig sg) = true.
  Proof.
    unfold verify_key.
    destruct (assoc neg c07_key_info) as [c|]; [|discriminate].
    destruct (class_of c) as [cls|]; [|discriminate].
    destruct (load_key cls b) as [k|e]; cbn [bind]; [|discriminate].
    destruct (neq (s_alg sg) (strip_cert neg)) eqn:En; cbn [negb]; [|discriminate].
    destruct (verify_ssh_sig pv k H sg) eqn:Ev; [|discriminate].
    intros [= <-]. apply neq_eq in En. split; [assumption | now apply verify_ssh_sig_true].
  Qed.

  Lemma client_accept d dis sl neg b H sg key :
    names_plain d = true ->
    negotiate_hostkey d dis sl = Ok neg ->
    verify_key pv neg b H sg = Ok key ->
    s_alg sg = strip_cert neg /\ In (s_alg sg) d /\ ~ In (s_alg sg) dis /\
    exists h, sig_hash key (s_alg sg) = Some h /\ pv (pk_id key) h H (s_sig sg) = true.
  Proof.
    intros Hp Hn Hv. apply negotiate_In in Hn as [Hin _].
    destruct (preferred_keys_base d dis neg Hp Hin) as [Hd Hdis].
    destruct (verify_key_ok neg b H sg key Hv) as [Ea Hh].
    rewrite Ea. repeat split; try assumption. now rewrite <- Ea.
  Qed.

  Lemma generate_key_enabled d dis decl b key :
    generate_key d dis decl b = Some key ->
    In (strip_cert decl) d /\ ~ In (strip_cert decl) dis.
  Proof.
    unfold generate_key, preferred_pubkeys.
    destruct (mem (strip_cert decl) (filter_algorithm d dis)) eqn:Em; cbn [negb]; [|discriminate].
    intros _. apply mem_In in Em. now apply filter_algorithm_In.
  Qed.

  Lemma server_accept d dis decl b cbf att data sg key :
    server_pubkey pv d dis decl b cbf att data sg = PkVerified key ->
    generate_key d dis decl b = Some key /\ cbf = false /\ att = true /\
    s_alg sg = strip_cert decl /\ In (s_alg sg) d /\ ~ In (s_alg sg) dis /\
    exists h, sig_hash key (s_alg sg) = Some h /\ pv (pk_id key) h data (s_sig sg) = true.
  Proof.
    unfold server_pubkey.
    destruct (generate_key d dis decl b) as [k|] eqn:Eg; [|discriminate].
    destruct cbf; [discriminate|]. destruct att; cbn [negb]; [|discriminate].
    destruct (neq (s_alg sg) (strip_cert decl)) eqn:En; cbn [negb]; [|discriminate].
    destruct (verify_ssh_sig pv k data sg) eqn:Ev; [|discriminate].
    intros E. injection E as <-. apply neq_eq in En.
    destruct (generate_key_enabled d dis decl b k Eg) as [Hd Hdis].
    rewrite En. repeat split; try assumption. rewrite <- En. now apply verify_ssh_sig_true.
  Qed.
End Verify.

Lemma default_keys_plain : names_plain c07_pref_keys = true.
Proof. vm_compute. reflexivity. Qed.

Lemma default_pubkeys_plain : names_plain c07_pref_pubkeys = true.
Proof. vm_compute. reflexivity. Qed.

Definition n_ssh_rsa : name := [115;115;104;45;114;115;97].
Definition n_rsa256 : name := [114;115;97;45;115;104;97;50;45;50;53;54].
Definition n_rsa512 : name := [114;115;97;45;115;104;97;50;45;53;49;50].
Definition n_p256 : name := [101;99;100;115;97;45;115;104;97;50;45;110;105;115;116;112;50;53;54].
Definition n_p384 : name := [101;99;100;115;97;45;115;104;97;50;45;110;105;115;116;112;51;56;52].

Definition sha1_only_ssh_rsa (l : list name) : bool :=
  forallb (fun x => match assoc x c07_rsa_hashes with
                    | Some 1 => neq x n_ssh_rsa
                    | _ => true
                    end) l.

Lemma default_keys_sha1 : sha1_only_ssh_rsa c07_pref_keys = true.
Proof. vm_compute. reflexivity. Qed.
Lemma default_pubkeys_sha1 : sha1_only_ssh_rsa c07_pref_pubkeys = true.
Proof. vm_compute. reflexivity. Qed.

Lemma rsa_sha1_disabled d dis k alg :
  sha1_only_ssh_rsa d = true -> In n_ssh_rsa dis -> In alg d -> ~ In alg dis ->
  pk_class k = KRSA -> sig_hash k alg <> Some 1.
Proof.
  unfold sha1_only_ssh_rsa, sig_hash. rewrite forallb_forall. intros H Hdis Hd Hnd -> E.
  specialize (H alg Hd). rewrite E in H. apply neq_eq in H. now subst alg.
Qed.

Definition pv_sha1 : Z -> Z -> list Z -> list Z -> bool := fun _ h _ _ => h =? 1.
Definition rsa_blob : keyblob := MkBlob n_ssh_rsa (Ok 7).
Definition p384_blob : keyblob := MkBlob n_p384 (Ok 9).

(* verify_key and server_pubkey reject the inputs on which C07_client_v0_refuted and
   C07_server_v0_refuted (Props) show their versions before the repair to accept: rsa-sha2-512
   negotiated / declared, a signature naming ssh-rsa that is valid under SHA-1 only *)
Lemma client_witness_rejected :
  verify_key pv_sha1 n_rsa512 rsa_blob [] (MkSig n_ssh_rsa []) = Raise SSHExc.
Proof. vm_compute. reflexivity. Qed.
Lemma server_witness_rejected :
  server_pubkey pv_sha1 c07_pref_pubkeys [n_ssh_rsa] n_rsa512 rsa_blob false true [] (MkSig n_ssh_rsa [])
  = PkSigRejected.
Proof. vm_compute. reflexivity. Qed.
