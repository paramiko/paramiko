(* C14 -- lemmas about the shared server-side auth model (Model/C14.v); the C15 and C16 proofs
   build on them as well.

   A handler returns (state, outputs).  What a handler does is stated as a relation between the
   state it starts from and that pair, so that facts compose along [then_do] and [run].  Such a
   relation is proved of the three things every handler is [built] from, not handler by handler.
   Who may grant is read off the one place where a handler consults a callback ([method]). *)
From PV Require Import Bytes ListFacts C39 C39_proofs C14.
Open Scope Z_scope.

Lemma in_cb_pk : forall k u r l, In (OCb k u r) l -> In (OCb k u r) l. Proof. auto. Qed.

Lemma then_do_fst r f : fst (then_do r f) = fst (f (fst r)).
Proof. destruct r as [s o]. unfold then_do. cbn [fst snd]. destruct (f s). reflexivity. Qed.

Lemma then_do_snd r f : snd (then_do r f) = snd r ++ snd (f (fst r)).
Proof. destruct r as [s o]. unfold then_do. cbn [fst snd]. destruct (f s). reflexivity. Qed.

Lemma run_cons sig_ok sid st m e r :
  run sig_ok sid st ((m, e) :: r) = then_do (auth_step sig_ok sid st m e) (fun s => run sig_ok sid s r).
Proof. reflexivity. Qed.

Lemma along_run sig_ok sid (T : astate -> astate * list out -> Prop) :
  (forall st, T st (st, [])) ->
  (forall st r f, T st r -> (forall s, T s (f s)) -> T st (then_do r f)) ->
  (forall st m e, T st (auth_step sig_ok sid st m e)) ->
  forall steps st, T st (run sig_ok sid st steps).
Proof.
  intros Tnil Tthen Tstep. induction steps as [|[m e] r IH]; intros st; [apply Tnil|].
  rewrite run_cons. apply Tthen; [apply Tstep | intros s; apply IH].
Qed.

Lemma then_do_ext r f g : (forall s, f s = g s) -> then_do r f = then_do r g.
Proof. intros H. destruct r as [s o]. unfold then_do. rewrite H. reflexivity. Qed.

Lemma then_do_assoc r f g :
  then_do (then_do r f) g = then_do r (fun s => then_do (f s) g).
Proof.
  destruct r as [s o]. unfold then_do. destruct (f s) as [s1 o1]. destruct (g s1).
  rewrite app_assoc. reflexivity.
Qed.

Lemma run_app sig_ok sid pre post st :
  run sig_ok sid st (pre ++ post) = then_do (run sig_ok sid st pre) (fun s => run sig_ok sid s post).
Proof.
  revert st. induction pre as [|[m e] pre IH]; intros st.
  - cbn. destruct (run sig_ok sid st post). reflexivity.
  - rewrite <- app_comm_cons, !run_cons, then_do_assoc. apply then_do_ext. exact IH.
Qed.

(* Every handler is put together from three things: an exit that moves nothing that [quiet] below
   or [counts] in Proofs/C16_proofs.v speak about (flag and SUCCESS; counter, counted FAILURE and a
   closed transport); _send_auth_result, for a result in [sends]; and sequencing. *)
Inductive built (sends : cbres -> Prop) : astate -> astate * list out -> Prop :=
  | built_exit st st' o :
      a_authed st' = a_authed st -> a_fails st' = a_fails st ->
      (a_active st = false -> a_active st' = false) ->
      filter is_success o = [] -> filter is_counted_failure o = [] ->
      built sends st (st', o)
  | built_send st res : sends res -> built sends st (send_auth_result st res)
  | built_then st r f :
      built sends st r -> built sends (fst r) (f (fst r)) -> built sends st (then_do r f).

Section Handlers.
Variable sig_ok : list Z -> list Z -> list Z -> vres.
Variable sid : list Z.
Implicit Types sends : cbres -> Prop.

Lemma built_from sends st st' r :
  a_authed st' = a_authed st -> a_fails st' = a_fails st ->
  (a_active st = false -> a_active st' = false) -> built sends st' r -> built sends st r.
Proof.
  intros Ha Hf Hc H. destruct r as [s o].
  change (built sends st (then_do (st', []) (fun _ => (s, o)))).
  apply built_then; [apply built_exit; auto | exact H].
Qed.

Lemma built_disconnect sends c st : built sends st (disconnect c st).
Proof. apply built_exit; reflexivity. Qed.

Lemma built_raise sends st x : built sends st (raise_out st x).
Proof. apply built_exit; reflexivity. Qed.

Hint Resolve built_exit built_send built_then built_disconnect built_raise : built.

Lemma h_service_built sends st e s : built sends st (h_service st e s).
Proof. unfold h_service. destruct (beq s s_userauth), (e_banner e); auto with built. Qed.

Lemma h_gss_mic_request_built sends st e mechs : built sends st (h_gss_mic_request st e mechs).
Proof.
  unfold h_gss_mic_request. destruct (1 <? mechs), (e_mechok e); cbn [negb]; auto 7 with built.
Qed.

Lemma h_gss_token_built sends st e : sends RFailed -> built sends st (h_gss_token st e).
Proof.
  intros F. unfold h_gss_token. destruct (e_tok e =? 0), (e_tok e =? 1); auto with built.
  all: apply (built_from _ _ (set_gss st false)); auto with built.
Qed.

Definition quiet (st : astate) (r : astate * list out) : Prop :=
  a_authed (fst r) = a_authed st /\ ~ In OSuccess (snd r).

Lemma quiet_then st r f : quiet st r -> quiet (fst r) (f (fst r)) -> quiet st (then_do r f).
Proof.
  intros [Ha Ho] [Ha' Ho']. unfold quiet.
  rewrite then_do_fst, then_do_snd. split; [congruence|].
  intros Hin. apply in_app_or in Hin. tauto.
Qed.

Lemma send_auth_result_grants st res :
  let r := send_auth_result st res in
  a_user (fst r) = a_user st /\
  match res with
  | RSuccess => In OSuccess (snd r) /\ a_authed (fst r) = true
  | _ => quiet st r
  end.
Proof.
  unfold send_auth_result, limit_check, disconnect, quiet.
  destruct res; cbn [a_fails set_authed set_fails];
    destruct (fail_limit <=? _); cbn; intuition discriminate.
Qed.

Lemma no_success o : filter is_success o = [] -> ~ In OSuccess o.
Proof. intros Ho Hin. apply (proj1 (filter_nil_iff _ _) Ho) in Hin. discriminate. Qed.

Definition refusal (res : cbres) : Prop := res <> RSuccess.
Hint Extern 1 (refusal _) => discriminate : built.

Lemma built_quiet st r : built refusal st r -> quiet st r.
Proof.
  induction 1 as [st st' o Ha _ _ Ho _ | st res Hres | st r f _ Hr _ Hf].
  - split; [exact Ha | apply no_success, Ho].
  - destruct (send_auth_result_grants st res) as [_ Q]. destruct res; [contradiction Hres|..]; auto.
  - apply quiet_then; assumption.
Qed.

(* what a publickey request must bring for SUCCESS: a key, a signature naming the declared
   algorithm, and the oracle's VTrue for it over this session's blob *)
Definition pk_proof (m : amsg) (e : env) : Prop :=
  exists u s alg kb sg blob,
    m = Msg50 u s (BPublickey true alg kb sg) /\ e_keyok e = true /\
    session_blob sid u s alg (e_bits e) = Ok blob /\ sig_ok (e_bits e) blob sg = VTrue /\
    beq (sig_alg sg) (strip_cert alg) = true.

(* What the handler of an authentication method does with message [m]: it refuses, sending no
   result but AUTH_FAILED; or it consults callback [k] about user [u] and sends the callback's
   answer, the publickey callback only with proof in hand.  Each such handler is walked once, to
   show this; that it is [built], and what it grants, follow from the two cases. *)
Inductive method (m : amsg) (e : env) (k : cbkind) (u : option (list Z)) (st : astate)
  : astate * list out -> Prop :=
  | refuses r : (forall sends, sends RFailed -> built sends st r) -> method m e k u st r
  | consults res :
      e_res e = res -> (k = CbPublickey -> pk_proof m e) ->
      method m e k u st (then_do (st, [OCb k u res]) (fun s => send_auth_result s res)).

Lemma method_built sends m e k u st r :
  sends RFailed -> sends (e_res e) -> method m e k u st r -> built sends st r.
Proof. intros F R [? H | res <- _]; [apply H, F | auto with built]. Qed.

Lemma h_none_method m e st u : method m e CbNone (Some u) st (h_none st e u).
Proof. apply consults; [reflexivity | discriminate]. Qed.

(* every way out of h_publickey but the last refuses *)
Lemma h_publickey_method st e u s sa alg kb sg :
  method (Msg50 u s (BPublickey sa alg kb sg)) e CbPublickey (Some u) st
         (h_publickey sig_ok sid st e u s sa alg kb sg).
Proof.
  unfold h_publickey.
  destruct (e_keyok e) eqn:Ek; cbn [negb]; [|apply refuses; auto with built].
  destruct (e_res e) eqn:Er; [| |apply refuses; auto with built|];
    (destruct sa; cbn [negb]; [|apply refuses; auto with built]);
    (destruct (session_blob sid u s alg (e_bits e)) as [blob|x] eqn:Eb; [|apply refuses; auto with built]);
    (destruct (beq (sig_alg sg) (strip_cert alg)) eqn:Ea; cbn [negb]; [|apply refuses; auto with built]);
    (destruct (sig_ok (e_bits e) blob sg) eqn:Ev; [|apply refuses; auto with built ..]);
    (apply consults; [exact Er | intros _; unfold pk_proof; eauto 12]).
Qed.

Lemma h_gss_keyex_method m e st u : method m e CbGssKeyex (Some u) st (h_gss_keyex st e u).
Proof.
  unfold h_gss_keyex.
  destruct (e_kexctx e); cbn [negb]; [|apply refuses; auto 7 with built].
  destruct (e_micok e); cbn [negb]; [|apply refuses; auto with built].
  apply consults; [reflexivity | discriminate].
Qed.

Lemma h_info_response_method m e st :
  method m e CbInteractiveResp (a_user st) st (h_info_response st e).
Proof.
  unfold h_info_response.
  destruct (e_res e) eqn:Er;
    [apply consults; [exact Er | discriminate] .. | apply refuses; auto with built].
Qed.

Lemma h_gss_mic_method m e st :
  method m e CbGssMic (a_user st) (set_gss st false) (h_gss_mic st e).
Proof.
  unfold h_gss_mic. destruct (e_micok e); cbn [negb]; [|apply refuses; auto with built].
  apply (consults m e CbGssMic (a_user st) (set_gss st false)); [reflexivity | discriminate].
Qed.

Lemma h_request_cases st e u s b :
  let m := Msg50 u s b in let st1 := set_user st (Some u) in
  (forall sends, built sends st (h_request sig_ok sid st e u s b)) \/
  exists k f, h_request sig_ok sid st e u s b = then_do (st1, [OInfo InfoEnableGss]) f /\
    cb_for m k = true /\ method m e k (Some u) st1 (f st1).
Proof.
  unfold h_request.
  destruct (a_authed st); [left; auto with built|].
  destruct (negb (beq s s_connection)); [left; auto with built|].
  destruct (match a_user st with Some u0 => negb (beq u0 u) | None => false end);
    [left; auto with built|].
  right. cbv zeta.
  destruct b as [|c|sa alg kb sg| |mechs| |];
    [exists CbNone | exists CbPassword | exists CbPublickey | exists CbInteractive | exists CbNone
     | destruct (e_gss e); [exists CbGssKeyex | exists CbNone] | exists CbNone];
    eexists; (split; [reflexivity|]); (split; [reflexivity|]); cbn beta iota.
  - apply h_none_method.
  - destruct c; [apply refuses; auto with built | apply consults; [reflexivity | discriminate]].
  - apply h_publickey_method.
  - destruct (e_res e) eqn:Er;
      [apply consults; [exact Er | discriminate] .. | apply refuses; auto with built].
  - destruct (e_gss e); [apply refuses; intros; apply h_gss_mic_request_built | apply h_none_method].
  - apply h_gss_keyex_method.
  - apply h_none_method.
  - apply h_none_method.
Qed.

Lemma h_request_built sends st e u s b :
  sends RFailed -> sends (e_res e) -> built sends st (h_request sig_ok sid st e u s b).
Proof.
  intros F R. destruct (h_request_cases st e u s b) as [H | (k & f & -> & _ & M)]; [apply H|].
  apply built_then; [auto with built | exact (method_built _ _ _ _ _ _ _ F R M)].
Qed.

Lemma auth_step_built sends st m e :
  sends RFailed -> sends (e_res e) -> built sends st (auth_step sig_ok sid st m e).
Proof.
  intros F R. unfold auth_step. destruct (a_active st); cbn [negb]; [|auto with built].
  destruct (a_gss st), m as [s|u s b| |].
  - apply (built_from _ _ (set_gss st false)); auto using h_service_built.
  - apply (built_from _ _ (set_gss st false)); auto using h_request_built.
  - apply h_gss_token_built, F.
  - apply (built_from _ _ (set_gss st false));
      [auto .. | exact (method_built _ _ _ _ _ _ _ F R (h_gss_mic_method Msg66 e st))].
  - apply h_service_built.
  - apply h_request_built; assumption.
  - exact (method_built _ _ _ _ _ _ _ F R (h_info_response_method Msg61 e st)).
  - auto with built.
Qed.

Definition granted (k : cbkind) (u : option (list Z)) (m : amsg) (e : env) (st : astate)
           (r : astate * list out) : Prop :=
  e_res e = RSuccess /\ In (OCb k u RSuccess) (snd r) /\ (k = CbPublickey -> pk_proof m e) /\
  In OSuccess (snd r) /\ a_authed (fst r) = true /\ a_user (fst r) = a_user st.

Definition outcome k u m e st r : Prop := quiet st r \/ granted k u m e st r.

Lemma method_outcome m e k u st r : method m e k u st r -> outcome k u m e st r.
Proof.
  intros [? H | res Er Hp]; [left; apply built_quiet, H; discriminate|].
  destruct (send_auth_result_grants st res) as [Hu Hr].
  destruct res; [right | left; apply built_quiet; auto with built ..].
  unfold granted. rewrite then_do_fst, then_do_snd. cbn [fst snd]. intuition.
Qed.

Lemma outcome_after k u m e st o f :
  filter is_success o = [] -> outcome k u m e st (f st) ->
  outcome k u m e st (then_do (st, o) f).
Proof.
  intros Ho [[Ha Hs]|(Er & Hc & Hp & Hs & Ha & Hu)]; [left; unfold quiet | right; unfold granted];
    rewrite then_do_fst, then_do_snd; cbn [fst snd]; [|intuition].
  split; [exact Ha|]. intros [Hin|Hin]%in_app_or; [exact (no_success o Ho Hin) | exact (Hs Hin)].
Qed.

(* the conclusion of C14_success_needs_approval, about a result *)
Definition approved (m : amsg) (e : env) (r : astate * list out) : Prop :=
  (e_res e = RSuccess /\
   exists k, In (OCb k (a_user (fst r)) RSuccess) (snd r) /\ cb_for m k = true /\
     (k = CbPublickey -> pk_proof m e)) /\
  (forall u s b, m = Msg50 u s b -> a_user (fst r) = Some u) /\
  In OSuccess (snd r) /\ a_authed (fst r) = true.

Lemma outcome_verdict k m e st0 st r :
  outcome k (a_user st) m e st r -> a_authed st = a_authed st0 -> cb_for m k = true ->
  (forall u s b, m = Msg50 u s b -> a_user st = Some u) -> quiet st0 r \/ approved m e r.
Proof.
  intros [[Ha Hs]|(Er & Hc & Hp & Hs & Ha & Hu)] H0 Hk Hm; [left; split; congruence | right].
  unfold approved. rewrite Hu. eauto 10.
Qed.

Lemma h_request_verdict st e u s b :
  let r := h_request sig_ok sid st e u s b in quiet st r \/ approved (Msg50 u s b) e r.
Proof.
  cbv zeta. destruct (h_request_cases st e u s b) as [H | (k & f & -> & Hk & M)];
    [left; apply built_quiet, H|].
  apply (outcome_verdict k _ _ st (set_user st (Some u))); [|reflexivity | exact Hk |].
  - apply outcome_after; [reflexivity | apply method_outcome, M].
  - intros ? ? ? [= -> _ _]. reflexivity.
Qed.

Theorem step_verdict st m e :
  let r := auth_step sig_ok sid st m e in quiet st r \/ approved m e r.
Proof.
  unfold auth_step. destruct (a_active st); cbn [negb]; [|left; apply built_quiet; auto with built].
  destruct (a_gss st), m as [s|u s b| |].
  - left. apply (built_quiet (set_gss st false)), h_service_built.
  - exact (h_request_verdict (set_gss st false) e u s b).
  - left. apply built_quiet, h_gss_token_built. discriminate.
  - apply (outcome_verdict CbGssMic _ _ st (set_gss st false));
      [exact (method_outcome _ _ _ _ _ _ (h_gss_mic_method Msg66 e st)) | reflexivity ..| discriminate].
  - left. apply built_quiet, h_service_built.
  - apply h_request_verdict.
  - apply (outcome_verdict CbInteractiveResp _ _ st st);
      [apply method_outcome, h_info_response_method | reflexivity | reflexivity | discriminate].
  - left. apply built_quiet. auto with built.
Qed.

Corollary step_verdict_eq st m e st' outs :
  auth_step sig_ok sid st m e = (st', outs) ->
  (a_authed st' = a_authed st /\ ~ In OSuccess outs) \/ approved m e (st', outs).
Proof. intros H. pose proof (step_verdict st m e) as V. cbv zeta in V. rewrite H in V. exact V. Qed.

Lemma authed_mono st m e :
  a_authed st = true -> a_authed (fst (auth_step sig_ok sid st m e)) = true.
Proof. intros Ha. destruct (step_verdict st m e) as [[Q _]|(_ & _ & _ & A)]; congruence. Qed.

Definition authed_by_approval (st : astate) (r : astate * list out) : Prop :=
  a_authed st = false -> a_authed (fst r) = true ->
  In OSuccess (snd r) /\ exists k u, In (OCb k u RSuccess) (snd r).

Lemma run_authed_by_approval steps st : authed_by_approval st (run sig_ok sid st steps).
Proof.
  revert steps st. apply along_run; unfold authed_by_approval.
  - cbn. congruence.
  - intros st r f Hr Hf Hst. rewrite then_do_fst, then_do_snd. intros Hend.
    destruct (a_authed (fst r)) eqn:Hmid;
      [destruct (Hr Hst eq_refl) as (Hs & k & u & Hc) | destruct (Hf _ Hmid Hend) as (Hs & k & u & Hc)];
      (split; [|exists k, u]; apply in_or_app; auto).
  - intros st m e Hst Hend.
    destruct (step_verdict st m e) as [[Q _]|((_ & k & Hc & _) & _ & Hs & _)]; [congruence | eauto].
Qed.

End Handlers.

Lemma cb_for_pk u s sa alg kb sg k :
  cb_for (Msg50 u s (BPublickey sa alg kb sg)) k = true -> k = CbPublickey.
Proof. destruct k; cbn; congruence. Qed.

Lemma blob_fields_wf sid u s a k :
  bytes_ok sid = true -> bytes_ok u = true -> bytes_ok s = true -> bytes_ok a = true ->
  bytes_ok k = true -> forallb field_wf (blob_fields sid u s a k) = true.
Proof.
  intros H1 H2 H3 H4 H5. unfold blob_fields. cbn [forallb field_wf].
  rewrite H1, H2, H3, H4, H5. reflexivity.
Qed.

Lemma blob_injective :
  forall sid u s a k sid' u' s' a' k' b,
    bytes_ok sid = true -> bytes_ok u = true -> bytes_ok s = true -> bytes_ok a = true ->
    bytes_ok k = true ->
    bytes_ok sid' = true -> bytes_ok u' = true -> bytes_ok s' = true -> bytes_ok a' = true ->
    bytes_ok k' = true ->
    session_blob sid u s a k = Ok b -> session_blob sid' u' s' a' k' = Ok b ->
    sid = sid' /\ u = u' /\ s = s' /\ a = a' /\ k = k'.
Proof.
  intros sid u s a k sid' u' s' a' k' b H1 H2 H3 H4 H5 H1' H2' H3' H4' H5' E1 E2.
  assert (E : blob_fields sid u s a k = blob_fields sid' u' s' a' k')
    by (apply (encode_injective _ _ b); auto using blob_fields_wf).
  injection E. auto.
Qed.
