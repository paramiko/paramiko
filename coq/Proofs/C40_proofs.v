(* C40 — lemmas over Model/C40.v.  A pass is followed through two views of the option dictionary:
   a key other than IdentityFile through `dget`, where merging is `keep` (merge_get ... pass_get,
   lookup_raw_two_pass), and IdentityFile through `get_list`, where merging is `dedup_extend`
   (merge_idf ... pass_idf, lookup_raw_idf).  Where no block runs a command, applicability depends on
   the HostName and User obtained so far only, which gives the closed forms over `sel` / `coll`
   (relookup_closed, relookup_idf).  Token expansion is followed segment by segment (apply_rep_seg,
   fold_subst_seg). *)
From Coq Require Import ZArith List Bool Lia.
From PV Require Import Bytes ListFacts Glob C40_gen C40.
Import ListNotations.
Open Scope Z_scope.

Lemma mem_str_iff x l : mem_str x l = true <-> In x l.
Proof.
  induction l as [|y l IH]; cbn; [split; [discriminate|tauto]|].
  rewrite orb_true_iff, zlist_eqb_eq, IH. tauto.
Qed.

Lemma mem_str_filter (p : str -> bool) l tok :
  mem_str tok (filter p l) = p tok && mem_str tok l.
Proof.
  induction l as [|y l IH]; cbn [filter mem_str]; [now rewrite andb_false_r|].
  destruct (p y) eqn:Ep; cbn [mem_str]; rewrite IH; destruct (zlist_eqb_spec y tok) as [->|Hne];
    rewrite ?Ep; reflexivity.
Qed.

Lemma keep_none o : keep o None = o.
Proof. destruct o; reflexivity. Qed.

Lemma keep_assoc a b c : keep (keep a b) c = keep a (keep b c).
Proof. destruct a; reflexivity. Qed.

Lemma dget_dset_same d k v : dget (dset d k v) k = Some v.
Proof.
  induction d as [|[k' v'] d IH]; cbn.
  - now rewrite zlist_eqb_refl.
  - destruct (zlist_eqb k' k) eqn:E; cbn; rewrite E; [reflexivity|apply IH].
Qed.

Lemma dget_dset_other d k v k2 : k2 <> k -> dget (dset d k v) k2 = dget d k2.
Proof.
  intros H. induction d as [|[k' v'] d IH]; cbn.
  - now rewrite zlist_eqb_neq by congruence.
  - destruct (zlist_eqb_spec k' k) as [->|Hne]; cbn.
    + now rewrite zlist_eqb_neq by congruence.
    + now rewrite IH.
Qed.

Lemma dget_app a b k : dget (a ++ b) k = keep (dget a k) (dget b k).
Proof.
  induction a as [|[k' v'] a IH]; cbn; [reflexivity|].
  destruct (zlist_eqb k' k); [reflexivity|apply IH].
Qed.

Lemma dget_keys d k : In k (map fst d) <-> dget d k <> None.
Proof.
  induction d as [|[k' v'] d IH]; cbn; [tauto|].
  destruct (zlist_eqb_spec k' k) as [->|Hne]; [|rewrite <- IH]; intuition congruence.
Qed.

Lemma in_keys_dset x d k v : In x (map fst (dset d k v)) -> In x (map fst d) \/ x = k.
Proof.
  induction d as [|[k' v'] d IH]; cbn.
  - intros [H|[]]. auto.
  - destruct (zlist_eqb k' k) eqn:E; cbn; intros [H|H]; auto.
    destruct (IH H); auto.
Qed.

Lemma nodup_keys_dset d k v : NoDup (map fst d) -> NoDup (map fst (dset d k v)).
Proof.
  induction d as [|[k' v'] d IH]; cbn; intros H.
  - constructor; [tauto|constructor].
  - inversion H as [|? ? Hn Hd]; subst.
    destruct (zlist_eqb_spec k' k) as [->|Hne]; cbn; constructor; auto.
    intros Hin. apply in_keys_dset in Hin as [Hin| ->]; contradiction.
Qed.

Lemma negated_iff p q : negated p = Some q <-> p = 33 :: q.
Proof.
  destruct p as [|c p]; cbn; [split; discriminate|].
  destruct (Z.eqb_spec c 33) as [->|Hne]; split; intros [= ->]; try reflexivity; contradiction.
Qed.

Lemma neg_hit_iff p t : neg_hit p t = true <-> exists q, p = 33 :: q /\ glob q t = true.
Proof.
  unfold neg_hit. destruct (negated p) as [q|] eqn:E.
  - apply negated_iff in E. subst. split; [eauto|]. intros (q' & [= ->] & G). exact G.
  - split; [discriminate|]. intros (q & -> & _). discriminate.
Qed.

Lemma pm_from_eq ps : forall m t,
  pm_from m ps t =
  (m || existsb (fun p => glob p t) ps) && negb (existsb (fun p => neg_hit p t) ps).
Proof.
  induction ps as [|p ps IH]; intros m t; cbn [pm_from existsb].
  - now rewrite orb_false_r, andb_true_r.
  - destruct (neg_hit p t); cbn [orb negb]; [now rewrite andb_false_r|].
    destruct (glob p t); rewrite IH; cbn [orb]; [now rewrite orb_true_r|reflexivity].
Qed.

Lemma pattern_matches_spec ps t :
  pattern_matches ps t = true <->
  (exists p, In p ps /\ glob p t = true) /\ (forall q, In (33 :: q) ps -> glob q t = false).
Proof.
  unfold pattern_matches. rewrite pm_from_eq, andb_true_iff, negb_true_iff. cbn [orb].
  rewrite existsb_exists. apply and_iff_compat_l. split.
  - intros H q Hin. destruct (glob q t) eqn:G; [|reflexivity]. rewrite <- H. symmetry.
    apply existsb_exists. exists (33 :: q). split; [exact Hin|]. apply neg_hit_iff. eauto.
  - intros H. destruct (existsb _ ps) eqn:E; [|reflexivity].
    apply existsb_exists in E as (p & Hin & N). apply neg_hit_iff in N as (q & -> & G).
    now rewrite (H q Hin) in G.
Qed.

(* Match criteria: everything a criterion looks at beyond the name, the environment and `canonical` *)
Definition crit_agrees (final final' : bool) (opts opts' : dict) (c : crit) : Prop :=
  match c_type c with
  | CFinal => final = final'
  | CHost => dget opts s_hostname = dget opts' s_hostname
  | CUser => dget opts s_user = dget opts' s_user
  | CExec => False
  | _ => True
  end.

Lemma dm_from_ext cs : forall m e t canonical final final' opts opts',
  Forall (crit_agrees final final' opts opts') cs ->
  dm_from m cs e t canonical final opts = dm_from m cs e t canonical final' opts'.
Proof.
  induction cs as [|c cs IH]; intros m e t canonical final final' opts opts' H; [reflexivity|].
  apply Forall_cons_iff in H as [Hc H]. cbn [dm_from]. rewrite (IH true e t canonical _ _ _ _ H).
  unfold crit_agrees in Hc. destruct (c_type c); try reflexivity; try contradiction; now rewrite Hc.
Qed.

(* the three classes of blocks the theorems speak of are `forallb p` over the criteria for some p *)
Lemma applies_ext (p : crit -> bool) e t c f f' opts opts' b :
  (forall cr, p cr = true -> crit_agrees f f' opts opts' cr) ->
  match b_hdr b with HHost _ => true | HMatch cs => forallb p cs end = true ->
  applies e t c f opts b = applies e t c f' opts' b.
Proof.
  intros Hp. unfold applies. destruct (b_hdr b) as [ps|cs]; [reflexivity|]. intros H.
  apply dm_from_ext, Forall_forall. intros cr Hc. exact (Hp cr (proj1 (forallb_forall _ _) H cr Hc)).
Qed.

Lemma applies_static_eq e t final opts b :
  static_block b = true -> applies e t false final opts b = applies_static e t b.
Proof.
  apply (applies_ext static_crit). intros cr. unfold static_crit, crit_agrees. now destruct (c_type cr).
Qed.

Lemma applies_optfree e t f opts b :
  optfree_block b = true -> applies e t false f opts b = applies e t false f [] b.
Proof.
  apply (applies_ext optfree_crit). intros cr. unfold optfree_crit, crit_agrees. now destruct (c_type cr).
Qed.

Lemma dget_mini_h oh ou : dget (mini oh ou) s_hostname = oh.
Proof. destruct oh, ou; reflexivity. Qed.
Lemma dget_mini_u oh ou : dget (mini oh ou) s_user = ou.
Proof. destruct oh, ou; reflexivity. Qed.

Lemma applies_hu_eq e t c f opts b :
  exec_free_block b = true ->
  applies e t c f opts b = applies_hu e t c f (dget opts s_hostname) (dget opts s_user) b.
Proof.
  apply applies_ext. intros cr. unfold crit_agrees. rewrite dget_mini_h, dget_mini_u. now destruct (c_type cr).
Qed.

Lemma merge_get opts kv k :
  k <> s_identityfile ->
  dget (merge_kv opts kv) k =
  keep (dget opts k) (if zlist_eqb (fst kv) k then Some (snd kv) else None).
Proof.
  intros Hk. destruct kv as [k' v]. unfold merge_kv, dmem. cbn [fst snd].
  destruct (zlist_eqb_spec k' s_identityfile) as [->|Hi].
  - rewrite dget_dset_other, zlist_eqb_neq by congruence. now rewrite keep_none.
  - destruct (zlist_eqb_spec k' k) as [->|Hne].
    + destruct (dget opts k) eqn:E; [now rewrite E|]. now rewrite dget_dset_same.
    + rewrite keep_none. destruct (dget opts k'); [reflexivity|]. now rewrite dget_dset_other by congruence.
Qed.

Lemma fold_merge_get l : forall opts k,
  k <> s_identityfile ->
  dget (fold_left merge_kv l opts) k = keep (dget opts k) (dget l k).
Proof.
  induction l as [|[k' v] l IH]; intros opts k Hk; cbn [fold_left dget]; [now rewrite keep_none|].
  rewrite IH, merge_get, keep_assoc by assumption. cbn [fst snd]. now destruct (zlist_eqb k' k).
Qed.

Lemma apply_block_get e t c f opts b k :
  k <> s_identityfile ->
  dget (apply_block e t c f opts b) k =
  keep (dget opts k) (if applies e t c f opts b then dget (block_config (b_body b)) k else None).
Proof.
  intros Hk. unfold apply_block. destruct (applies e t c f opts b).
  - apply fold_merge_get, Hk.
  - now rewrite keep_none.
Qed.

Lemma pass_get e t c f cfg : forall opts k,
  k <> s_identityfile ->
  dget (pass e t c f cfg opts) k = keep (dget opts k) (first_from e t c f cfg opts k).
Proof.
  unfold pass. induction cfg as [|b cfg IH]; intros opts k Hk; cbn [fold_left first_from].
  - now rewrite keep_none.
  - rewrite IH, apply_block_get, keep_assoc by assumption. f_equal.
    unfold apply_block. destruct (applies e t c f opts b); reflexivity.
Qed.

Lemma first_from_find e t c f f' cfg : forall opts k,
  (forall b o, In b cfg -> applies e t c f o b = applies e t c f' [] b) ->
  first_from e t c f cfg opts k =
  match find (fun b => applies e t c f' [] b && dmem (block_config (b_body b)) k) cfg with
  | Some b => dget (block_config (b_body b)) k
  | None => None
  end.
Proof.
  induction cfg as [|b cfg IH]; intros opts k H; cbn [first_from find]; [reflexivity|].
  rewrite (H b opts) by now left. unfold dmem.
  destruct (applies e t c f' [] b); cbn [andb]; [|apply IH; intros; apply H; now right].
  destruct (dget (block_config (b_body b)) k) eqn:E; [now rewrite E|]. apply IH. intros; apply H; now right.
Qed.

Lemma first_from_static e t f cfg opts k :
  forallb static_block cfg = true -> first_from e t false f cfg opts k = first_obtained e t cfg k.
Proof.
  intros H. apply (first_from_find e t false f false). intros b o Hb.
  apply applies_static_eq. exact (proj1 (forallb_forall _ _) H b Hb).
Qed.

Lemma first_from_optfree e t f cfg opts k :
  forallb optfree_block cfg = true -> first_from e t false f cfg opts k = first_obtained_in e t f cfg k.
Proof.
  intros H. apply (first_from_find e t false f f). intros b o Hb.
  apply applies_optfree. exact (proj1 (forallb_forall _ _) H b Hb).
Qed.

Lemma first_from_sel e t c f cfg : forall opts k,
  forallb exec_free_block cfg = true ->
  first_from e t c f cfg opts k = sel e t c f cfg (dget opts s_hostname) (dget opts s_user) k.
Proof.
  induction cfg as [|b cfg IH]; intros opts k Hx; cbn [first_from sel]; [reflexivity|].
  cbn in Hx. apply andb_true_iff in Hx as [Hb Hx].
  rewrite <- applies_hu_eq by assumption. destruct (applies e t c f opts b) eqn:Ea; [|apply IH, Hx].
  destruct (dget (block_config (b_body b)) k); [reflexivity|].
  rewrite IH by assumption. rewrite !apply_block_get by discriminate. rewrite Ea. reflexivity.
Qed.

Lemma first_pass_get e cfg host k :
  k <> s_identityfile ->
  dget (first_pass e cfg host) k =
  keep (first_from e host false false cfg [] k)
       (if zlist_eqb k s_hostname then Some (VStr host) else None).
Proof.
  intros Hk. pose proof (pass_get e host false false cfg [] k Hk) as P. cbn [dget keep] in P. rewrite <- P.
  unfold first_pass, dmem.
  destruct (dget (pass e host false false cfg []) s_hostname) eqn:E;
    destruct (zlist_eqb_spec k s_hostname) as [->|Hne].
  - now rewrite E.
  - now rewrite keep_none.
  - now rewrite dget_dset_same, E.
  - rewrite dget_dset_other by assumption. now rewrite keep_none.
Qed.

Lemma relookup_plain e cfg host :
  lookup_raw e cfg host = (if in_fragment cfg then Some (relookup e cfg host host false) else None).
Proof. reflexivity. Qed.

Lemma lookup_raw_some e cfg host raw :
  lookup_raw e cfg host = Some raw -> raw = relookup e cfg host host false.
Proof. rewrite relookup_plain. destruct (in_fragment cfg); [|discriminate]. now intros [= <-]. Qed.

Lemma lookup_raw_two_pass e cfg host raw k :
  lookup_raw e cfg host = Some raw ->
  k <> s_identityfile ->
  dget raw k =
  keep (first_from e host false false cfg [] k)
       (if zlist_eqb k s_hostname then Some (VStr host)
        else first_from e host false true cfg (first_pass e cfg host) k).
Proof.
  intros ->%lookup_raw_some Hk. unfold relookup.
  rewrite pass_get, first_pass_get, keep_assoc by assumption. f_equal.
  now destruct (zlist_eqb k s_hostname).
Qed.

Lemma dedup_extend_nodup new : forall cur, NoDup cur -> NoDup (dedup_extend cur new).
Proof.
  induction new as [|x new IH]; intros cur H; cbn; [exact H|].
  destruct (mem_str x cur) eqn:E; [apply IH, H|].
  apply IH, NoDup_snoc; [exact H|]. rewrite <- mem_str_iff. congruence.
Qed.

Lemma dedup_extend_in new : forall cur x, In x (dedup_extend cur new) <-> In x cur \/ In x new.
Proof.
  induction new as [|y new IH]; intros cur x; cbn; [tauto|].
  destruct (mem_str y cur) eqn:E; rewrite IH.
  - apply mem_str_iff in E. split; [tauto|]. intros [H|[H|H]]; subst; auto.
  - rewrite in_app_iff. cbn. tauto.
Qed.

Lemma dedup_extend_app a : forall cur b, dedup_extend (dedup_extend cur a) b = dedup_extend cur (a ++ b).
Proof.
  induction a as [|x a IH]; intros cur b; cbn; [reflexivity|].
  destruct (mem_str x cur); apply IH.
Qed.

Lemma dedup_extend_subseq new : forall cur,
  exists sfx, dedup_extend cur new = cur ++ sfx /\ Subseq sfx new.
Proof.
  induction new as [|x new IH]; intros cur; cbn.
  - exists []. rewrite app_nil_r. split; [reflexivity|constructor].
  - destruct (mem_str x cur).
    + destruct (IH cur) as (sfx & E & S). exists sfx. split; [exact E|apply S_skip; exact S].
    + destruct (IH (cur ++ [x])) as (sfx & E & S). exists (x :: sfx). split.
      * rewrite E, <- app_assoc. reflexivity.
      * apply S_keep. exact S.
Qed.

Lemma parse_line_shape d k v : parse_line d (k, v) = d \/ exists x, parse_line d (k, v) = dset d k x.
Proof.
  unfold parse_line. destruct (zlist_eqb k s_proxycommand && zlist_eqb (lower v) s_none); [eauto|].
  destruct (list_key k); [destruct (dget d k) as [[| |l]|]|destruct (dmem d k)]; eauto.
Qed.

Lemma block_config_keys body :
  NoDup (map fst (block_config body)) /\ incl (map fst (block_config body)) (map fst body).
Proof.
  unfold block_config.
  assert (G : forall d, NoDup (map fst d) ->
                NoDup (map fst (fold_left parse_line body d)) /\
                forall x, In x (map fst (fold_left parse_line body d)) -> In x (map fst d) \/ In x (map fst body)).
  { induction body as [|[k v] body IH]; intros d Hd; cbn [fold_left map fst]; [auto|].
    destruct (parse_line_shape d k v) as [->|[x ->]].
    - destruct (IH d Hd) as [A B]. split; [exact A|]. intros y Hy. destruct (B y Hy); cbn; auto.
    - destruct (IH _ (nodup_keys_dset d k x Hd)) as [A B]. split; [exact A|]. intros y Hy.
      destruct (B y Hy) as [H|H]; [apply in_keys_dset in H as [H| ->]|]; cbn; auto. }
  destruct (G [] (NoDup_nil _)) as [A B]. split; [exact A|]. intros x Hx. now destruct (B x Hx).
Qed.

Lemma get_list_dset_same d k v : get_list (dset d k v) k = as_list v.
Proof. unfold get_list. now rewrite dget_dset_same. Qed.

Lemma get_list_dset_other d k v k2 : k2 <> k -> get_list (dset d k v) k2 = get_list d k2.
Proof. intros H. unfold get_list. now rewrite dget_dset_other. Qed.

Lemma merge_idf opts kv :
  get_list (merge_kv opts kv) s_identityfile =
  dedup_extend (get_list opts s_identityfile)
               (if zlist_eqb (fst kv) s_identityfile then as_list (snd kv) else []).
Proof.
  destruct kv as [k v]. unfold merge_kv. cbn [fst snd].
  destruct (zlist_eqb_spec k s_identityfile) as [->|Hne].
  - apply get_list_dset_same.
  - cbn [dedup_extend]. destruct (dmem opts k); [reflexivity|]. apply get_list_dset_other. congruence.
Qed.

Definition idf_of (l : dict) : list str :=
  flat_map (fun kv => if zlist_eqb (fst kv) s_identityfile then as_list (snd kv) else []) l.

Lemma fold_merge_idf l : forall opts,
  get_list (fold_left merge_kv l opts) s_identityfile =
  dedup_extend (get_list opts s_identityfile) (idf_of l).
Proof.
  induction l as [|kv l IH]; intros opts; cbn [fold_left]; [reflexivity|].
  rewrite IH, merge_idf. apply dedup_extend_app.
Qed.

Lemma idf_of_nodup_keys l :
  NoDup (map fst l) -> idf_of l = get_list l s_identityfile.
Proof.
  unfold get_list. induction l as [|[k v] l IH]; intros H; [reflexivity|].
  cbn [map fst] in H. apply NoDup_cons_iff in H as [Hn Hd]. cbn [idf_of flat_map fst snd dget]. fold (idf_of l). rewrite (IH Hd).
  destruct (zlist_eqb_spec k s_identityfile) as [->|Hne]; [|reflexivity].
  destruct (dget l s_identityfile) eqn:E; [|apply app_nil_r].
  exfalso. apply Hn, dget_keys. congruence.
Qed.

Lemma apply_block_idf e t c f opts b :
  get_list (apply_block e t c f opts b) s_identityfile =
  dedup_extend (get_list opts s_identityfile)
               (if applies e t c f opts b then get_list (block_config (b_body b)) s_identityfile else []).
Proof.
  unfold apply_block. destruct (applies e t c f opts b); [|reflexivity].
  rewrite fold_merge_idf. now rewrite idf_of_nodup_keys by apply block_config_keys.
Qed.

Lemma pass_idf e t c f cfg : forall opts,
  get_list (pass e t c f cfg opts) s_identityfile =
  dedup_extend (get_list opts s_identityfile) (collected e t c f cfg opts).
Proof.
  unfold pass. induction cfg as [|b cfg IH]; intros opts; cbn [fold_left collected]; [reflexivity|].
  rewrite IH, apply_block_idf, dedup_extend_app. unfold apply_block.
  destruct (applies e t c f opts b); reflexivity.
Qed.

Lemma first_pass_idf e cfg host :
  get_list (first_pass e cfg host) s_identityfile =
  dedup_extend [] (collected e host false false cfg []).
Proof.
  unfold first_pass. destruct (dmem _ s_hostname).
  - apply pass_idf.
  - rewrite get_list_dset_other by discriminate. apply pass_idf.
Qed.

Lemma lookup_raw_idf e cfg host raw :
  lookup_raw e cfg host = Some raw ->
  get_list raw s_identityfile =
  dedup_extend [] (collected e host false false cfg [] ++
                   collected e host false true cfg (first_pass e cfg host)).
Proof.
  intros ->%lookup_raw_some. unfold relookup.
  rewrite pass_idf, first_pass_idf. apply dedup_extend_app.
Qed.

Lemma collected_coll e t c f cfg : forall opts,
  forallb exec_free_block cfg = true ->
  collected e t c f cfg opts = coll e t c f cfg (dget opts s_hostname) (dget opts s_user).
Proof.
  induction cfg as [|b cfg IH]; intros opts Hx; cbn [collected coll]; [reflexivity|].
  cbn in Hx. apply andb_true_iff in Hx as [Hb Hx].
  rewrite <- applies_hu_eq by assumption. destruct (applies e t c f opts b) eqn:Ea; [|apply IH, Hx].
  rewrite IH by assumption. rewrite !apply_block_get by discriminate. rewrite Ea. reflexivity.
Qed.

Lemma expand_hostname_get e t d k :
  dget (expand_hostname e t d) k =
  if zlist_eqb k s_hostname then option_map (tok_value e d t s_hostname) (dget d k) else dget d k.
Proof.
  unfold expand_hostname. generalize (tok_value e d t s_hostname) as F. intros F.
  induction d as [|[k' v] d IH]; cbn [map dget fst snd]; [now destruct (zlist_eqb k s_hostname)|].
  destruct (zlist_eqb_spec k' k) as [->|Hk].
  - destruct (zlist_eqb k s_hostname); cbn [dget fst]; now rewrite zlist_eqb_refl.
  - destruct (zlist_eqb k' s_hostname); cbn [dget fst]; rewrite (zlist_eqb_neq _ _ Hk); exact IH.
Qed.

(* keys whose value the in-place loop leaves alone: hostname (done beforehand) and keys whose
   tokenisation is the identity *)
Lemma expand_go_get_fixed e t k todo : forall done,
  (k = s_hostname \/ forall ctx v, tok_value e ctx t k v = v) ->
  dget (expand_go e t done todo) k = dget (done ++ todo) k.
Proof.
  induction todo as [|[k' v] todo IH]; intros done H; cbn [expand_go].
  - now rewrite app_nil_r.
  - rewrite IH by assumption. rewrite <- app_assoc. cbn [app].
    rewrite !dget_app. f_equal. cbn [dget].
    destruct (zlist_eqb_spec k' k) as [->|Hk]; [|reflexivity]. destruct H as [->|H].
    + now rewrite zlist_eqb_refl.
    + destruct (zlist_eqb k s_hostname); [reflexivity|]. now rewrite H.
Qed.

Lemma expand_get_hostname e t d :
  dget (expand e t d) s_hostname =
  match dget d s_hostname with Some v => Some (tok_value e d t s_hostname v) | None => None end.
Proof.
  unfold expand. rewrite expand_go_get_fixed by auto. cbn [app]. now rewrite expand_hostname_get, zlist_eqb_refl.
Qed.

Lemma tokenize_no_tokens e cfg t k v : allowed_tokens k = [] -> tokenize e cfg t k v = v.
Proof.
  intros H. unfold tokenize, replacements. rewrite H. cbn [mem_str].
  now rewrite (proj2 (filter_nil_iff _ replacement_order)).
Qed.

Lemma tok_value_no_tokens e cfg t k v : allowed_tokens k = [] -> tok_value e cfg t k v = v.
Proof.
  intros H. destruct v as [|s|l]; cbn [tok_value]; [reflexivity| |].
  - now rewrite tokenize_no_tokens.
  - f_equal. induction l as [|x l IH]; cbn [map]; [reflexivity|]. now rewrite tokenize_no_tokens, IH.
Qed.

Lemma hostname_has_tokens : allowed_tokens s_hostname <> [].
Proof. vm_compute. discriminate. Qed.

Lemma expand_get_no_tokens e t d k :
  allowed_tokens k = [] -> dget (expand e t d) k = dget d k.
Proof.
  intros H. unfold expand. rewrite expand_go_get_fixed by (right; intros; now apply tok_value_no_tokens).
  cbn [app]. rewrite expand_hostname_get, zlist_eqb_neq; [reflexivity|].
  intros ->. now apply hostname_has_tokens.
Qed.

Lemma replace2_cons_ne a b r x s : x <> a -> replace2 a b r (x :: s) = x :: replace2 a b r s.
Proof.
  intros H. apply Z.eqb_neq in H. destruct s as [|y s]; cbn; [reflexivity|]. now rewrite H.
Qed.

Lemma replace2_hit a b r s : replace2 a b r (a :: b :: s) = r ++ replace2 a b r s.
Proof. cbn. now rewrite !Z.eqb_refl. Qed.

Lemma replace2_miss a b r y s : y <> b -> replace2 a b r (a :: y :: s) = a :: replace2 a b r (y :: s).
Proof. intros H. apply Z.eqb_neq in H. cbn [replace2]. now rewrite H, andb_false_r. Qed.

Lemma replace2_absent a b r s : ~ In a s -> replace2 a b r s = s.
Proof.
  induction s as [|x s IH]; intros H; [reflexivity|].
  rewrite replace2_cons_ne by (intros ->; apply H; now left).
  rewrite IH; [reflexivity|]. intros Hin. apply H. now right.
Qed.

Lemma tokenize_hostname e cfg t v : tokenize e cfg t s_hostname v = replace2 37 104 t v.
Proof. reflexivity. Qed.

(* A replacement of shape `~` or `%c` acts on a well-formed value one segment at a time: it turns
   the segment that renders to its token into ordinary characters. *)
Definition subst_seg (fr : str * str) (s : seg) : list seg :=
  match s with
  | Ch _ => [s]
  | _ => if zlist_eqb (fst fr) (render_seg s) then map Ch (snd fr) else [s]
  end.
Definition subst_rep (l : list seg) (fr : str * str) : list seg := flat_map (subst_seg fr) l.
Definition tok_shape (f : str) : bool :=
  match f with
  | [a] => a =? 126
  | [a; b] => a =? 37
  | _ => false
  end.

Lemma render_app a b : render (a ++ b) = render a ++ render b.
Proof. apply flat_map_app. Qed.

Lemma render_chs r : render (map Ch r) = r.
Proof. induction r as [|x r IH]; cbn; [reflexivity|]. unfold render in IH. now rewrite IH. Qed.

Lemma clean_char_iff c : clean_char c = true <-> c <> 37 /\ c <> 126.
Proof. unfold clean_char. rewrite andb_true_iff, !negb_true_iff, !Z.eqb_neq. tauto. Qed.

Lemma wf_chs r : clean r = true -> forallb seg_wf (map Ch r) = true.
Proof.
  induction r as [|x r IH]; cbn; [reflexivity|]. intros H. apply andb_true_iff in H as [H1 H2].
  now rewrite H1, IH.
Qed.

Lemma replace2_seg c repl s rest :
  seg_wf s = true ->
  replace2 37 c repl (render_seg s ++ rest) =
  render (subst_seg ([37; c], repl) s) ++ replace2 37 c repl rest.
Proof.
  intros Hs. destruct s as [x|d|]; cbn [seg_wf] in Hs;
    cbn [render flat_map render_seg subst_seg fst snd app zlist_eqb].
  - apply clean_char_iff in Hs as [H1 _]. now rewrite replace2_cons_ne.
  - apply clean_char_iff in Hs as [H1 _]. rewrite Z.eqb_refl, andb_true_r. cbn [andb].
    destruct (Z.eqb_spec c d) as [->|E].
    + now rewrite replace2_hit, render_chs.
    + rewrite replace2_miss by congruence. now rewrite replace2_cons_ne.
  - now rewrite replace2_cons_ne by lia.
Qed.

Lemma replace1_seg repl s rest :
  seg_wf s = true ->
  replace1 126 repl (render_seg s ++ rest) =
  render (subst_seg ([126], repl) s) ++ replace1 126 repl rest.
Proof.
  intros Hs. destruct s as [x|d|]; cbn [seg_wf] in Hs;
    cbn [render flat_map render_seg subst_seg fst snd app zlist_eqb replace1].
  - apply clean_char_iff in Hs as [_ H2]. apply Z.eqb_neq in H2. now rewrite H2.
  - apply clean_char_iff in Hs as [_ H2]. apply Z.eqb_neq in H2. now rewrite H2.
  - rewrite Z.eqb_refl. cbn [andb]. now rewrite render_chs.
Qed.

Lemma apply_rep_seg fr s rest :
  tok_shape (fst fr) = true -> seg_wf s = true ->
  apply_rep (render_seg s ++ rest) fr = render (subst_seg fr s) ++ apply_rep rest fr.
Proof.
  intros Hf Hs. destruct fr as [f r]. unfold apply_rep. cbn [fst snd] in *.
  destruct f as [|a [|b [|? ?]]]; cbn in Hf; try discriminate.
  - apply Z.eqb_eq in Hf. subst a. apply replace1_seg, Hs.
  - apply Z.eqb_eq in Hf. subst a. apply replace2_seg, Hs.
Qed.

Lemma apply_rep_nil fr : apply_rep [] fr = [].
Proof. unfold apply_rep. now destruct (fst fr) as [|a [|b [|? ?]]]. Qed.

Lemma apply_rep_render l fr :
  tok_shape (fst fr) = true -> forallb seg_wf l = true ->
  apply_rep (render l) fr = render (subst_rep l fr).
Proof.
  intros Hf. induction l as [|s l IH]; intros Hl; [apply apply_rep_nil|].
  cbn [forallb] in Hl. apply andb_true_iff in Hl as [Hs Hl].
  change (render (s :: l)) with (render_seg s ++ render l).
  change (subst_rep (s :: l) fr) with (subst_seg fr s ++ subst_rep l fr).
  now rewrite render_app, apply_rep_seg, IH.
Qed.

Lemma subst_rep_wf l fr :
  clean (snd fr) = true -> forallb seg_wf l = true -> forallb seg_wf (subst_rep l fr) = true.
Proof.
  intros Hc Hl. apply forallb_flat_map. intros s Hs.
  pose proof (proj1 (forallb_forall _ _) Hl s Hs) as W.
  destruct s; cbn [subst_seg]; try destruct (zlist_eqb _ _); cbn [forallb]; rewrite ?W; auto using wf_chs.
Qed.

Lemma fold_apply_render reps : forall l,
  forallb (fun fr => tok_shape (fst fr) && clean (snd fr)) reps = true ->
  forallb seg_wf l = true ->
  fold_left apply_rep reps (render l) = render (fold_left subst_rep reps l).
Proof.
  induction reps as [|fr reps IH]; intros l H Hl; [reflexivity|].
  cbn in H. apply andb_true_iff in H as [H1 H2]. apply andb_true_iff in H1 as [Hs Hc].
  cbn [fold_left]. rewrite apply_rep_render by assumption. apply IH; [exact H2|].
  apply subst_rep_wf; assumption.
Qed.

Lemma fold_subst_app reps : forall a b,
  fold_left subst_rep reps (a ++ b) = fold_left subst_rep reps a ++ fold_left subst_rep reps b.
Proof.
  induction reps as [|fr reps IH]; intros a b; [reflexivity|].
  cbn [fold_left]. unfold subst_rep at 2. rewrite flat_map_app. apply IH.
Qed.

Lemma subst_rep_chs r fr : subst_rep (map Ch r) fr = map Ch r.
Proof. induction r as [|c r IH]; cbn; [reflexivity|]. f_equal. exact IH. Qed.

Lemma fold_subst_chs reps r : fold_left subst_rep reps (map Ch r) = map Ch r.
Proof. induction reps as [|fr reps IH]; [reflexivity|]. cbn [fold_left]. now rewrite subst_rep_chs. Qed.

Definition rep_for (reps : list (str * str)) (tok : str) : option str :=
  match find (fun fr : str * str => zlist_eqb (fst fr) tok) reps with Some fr => Some (snd fr) | None => None end.

(* of all the replacements, the first one for its token rewrites a token segment; the later ones find
   ordinary characters *)
Lemma fold_subst_seg reps s :
  (forall c, s <> Ch c) ->
  fold_left subst_rep reps [s] =
  match rep_for reps (render_seg s) with Some r => map Ch r | None => [s] end.
Proof.
  intros Hs. unfold rep_for. induction reps as [|fr reps IH]; [reflexivity|].
  cbn [fold_left find]. unfold subst_rep at 2. cbn [flat_map]. rewrite app_nil_r.
  destruct s as [c| |]; [now destruct (Hs c)| |]; cbn [subst_seg];
    (destruct (zlist_eqb (fst fr) _); [apply fold_subst_chs|exact IH]).
Qed.

Lemma rep_for_map (f : str -> str) l tok :
  rep_for (map (fun t => (t, f t)) l) tok = if mem_str tok l then Some (f tok) else None.
Proof.
  unfold rep_for. induction l as [|y l IH]; cbn [map find fst mem_str]; [reflexivity|].
  destruct (zlist_eqb_spec y tok) as [->|Hne]; [reflexivity|apply IH].
Qed.

Lemma order_shapes : forallb tok_shape replacement_order = true.
Proof. vm_compute. reflexivity. Qed.

Lemma allowed_have_replacements :
  forallb (fun kv => forallb (fun t => mem_str t replacement_order) (snd kv)) tokens_by_key = true.
Proof. vm_compute. reflexivity. Qed.

Lemma allowed_in_order key tok :
  mem_str tok (allowed_tokens key) = true -> mem_str tok replacement_order = true.
Proof.
  unfold allowed_tokens. destruct (find _ tokens_by_key) as [kv|] eqn:F; [|discriminate].
  apply find_some in F as [Hin _].
  pose proof (proj1 (forallb_forall _ _) allowed_have_replacements kv Hin) as H.
  intros Hm. apply mem_str_iff in Hm. exact (proj1 (forallb_forall _ _) H tok Hm).
Qed.

Lemma replacements_shapes e cfg t key :
  texts_clean e cfg t key = true ->
  forallb (fun fr => tok_shape (fst fr) && clean (snd fr)) (replacements e cfg t key) = true.
Proof.
  intros Hc. unfold replacements. apply forallb_forall. intros fr Hin.
  apply in_map_iff in Hin as (tok & <- & Hin). apply filter_In in Hin as [Hin _]. cbn [fst snd].
  rewrite (proj1 (forallb_forall _ _) order_shapes tok Hin).
  exact (proj1 (forallb_forall _ _) Hc tok Hin).
Qed.

Lemma rep_for_replacements e cfg t key tok :
  rep_for (replacements e cfg t key) tok =
  if mem_str tok (allowed_tokens key) then Some (token_text e cfg t key tok) else None.
Proof.
  unfold replacements. rewrite rep_for_map, mem_str_filter.
  destruct (mem_str tok (allowed_tokens key)) eqn:E; [|reflexivity].
  now rewrite (allowed_in_order key tok E).
Qed.

Lemma first_pass_sel e cfg host k :
  forallb exec_free_block cfg = true -> k <> s_identityfile ->
  dget (first_pass e cfg host) k =
  keep (sel e host false false cfg None None k) (if zlist_eqb k s_hostname then Some (VStr host) else None).
Proof. intros Hx Hk. now rewrite first_pass_get, first_from_sel by assumption. Qed.

Lemma relookup_start e cfg host t (c : bool) k :
  forallb exec_free_block cfg = true -> k <> s_identityfile ->
  let sel1 := sel e host false false cfg None None in
  dget (if c then dset (first_pass e cfg host) s_hostname (VStr t) else first_pass e cfg host) k =
  if zlist_eqb k s_hostname
  then (if c then Some (VStr t) else keep (sel1 s_hostname) (Some (VStr host)))
  else sel1 k.
Proof.
  intros Hx Hk sel1. destruct (zlist_eqb_spec k s_hostname) as [->|Hne]; destruct c;
    rewrite ?dget_dset_same, ?dget_dset_other, ?first_pass_sel by assumption;
    rewrite ?zlist_eqb_refl, ?(zlist_eqb_neq _ _ Hne), ?keep_none; reflexivity.
Qed.

(* plain: c = false, t = host; canonical: c = true *)
Lemma relookup_closed e cfg host t (c : bool) k :
  forallb exec_free_block cfg = true ->
  k <> s_identityfile ->
  let sel1 := sel e host false false cfg None None in
  let h1 := if c then Some (VStr t) else keep (sel1 s_hostname) (Some (VStr host)) in
  dget (relookup e cfg host t c) k =
  if zlist_eqb k s_hostname then h1 else keep (sel1 k) (sel e t c true cfg h1 (sel1 s_user) k).
Proof.
  intros Hx Hk sel1 h1. unfold relookup. rewrite pass_get, first_from_sel by assumption.
  rewrite !relookup_start by (assumption || discriminate).
  rewrite zlist_eqb_refl, (zlist_eqb_neq s_user s_hostname) by discriminate. fold sel1 h1.
  destruct (zlist_eqb k s_hostname); [|reflexivity].
  unfold h1. destruct c; [reflexivity|]. now destruct (sel1 s_hostname).
Qed.

Lemma relookup_idf e cfg host t (c : bool) :
  forallb exec_free_block cfg = true ->
  let sel1 := sel e host false false cfg None None in
  let h1 := if c then Some (VStr t) else keep (sel1 s_hostname) (Some (VStr host)) in
  get_list (relookup e cfg host t c) s_identityfile =
  dedup_extend [] (coll e host false false cfg None None ++ coll e t c true cfg h1 (sel1 s_user)).
Proof.
  intros Hx sel1 h1. unfold relookup. rewrite pass_idf, collected_coll by assumption.
  rewrite !relookup_start by (assumption || discriminate).
  rewrite zlist_eqb_refl, (zlist_eqb_neq s_user s_hostname) by discriminate. fold sel1 h1.
  replace (get_list _ s_identityfile) with (dedup_extend [] (coll e host false false cfg None None)).
  - apply dedup_extend_app.
  - destruct c; [rewrite get_list_dset_other by discriminate|]; now rewrite first_pass_idf, collected_coll.
Qed.

Lemma first_from_key e t c f cfg : forall opts k v,
  first_from e t c f cfg opts k = Some v -> exists b, In b cfg /\ In k (map fst (b_body b)).
Proof.
  induction cfg as [|b cfg IH]; intros opts k v H; cbn [first_from] in H; [discriminate|].
  assert (Hr : forall o, first_from e t c f cfg o k = Some v -> exists b', In b' (b :: cfg) /\ In k (map fst (b_body b'))).
  { intros o Ho. destruct (IH _ _ _ Ho) as (b' & Hb & Hk). exists b'. split; [now right|exact Hk]. }
  destruct (applies e t c f opts b); [|eauto].
  destruct (dget (block_config (b_body b)) k) eqn:E; [|eauto].
  exists b. split; [now left|]. apply block_config_keys, dget_keys. congruence.
Qed.

(* the keys that steer canonicalisation are outside lookup's fragment, so there lookup_full finds none
   of them and does what lookup does *)
Lemma first_pass_excluded e cfg host k :
  in_fragment cfg = true -> excluded_key k = true -> dget (first_pass e cfg host) k = None.
Proof.
  intros Hf Hk.
  rewrite first_pass_get by (intros ->; discriminate). rewrite zlist_eqb_neq by (intros ->; discriminate).
  destruct (first_from e host false false cfg [] k) eqn:F; [|reflexivity].
  apply first_from_key in F as (b & Hb & Hin). exfalso.
  apply in_map_iff in Hin as (kv & <- & Hkv).
  pose proof (proj1 (forallb_forall _ _) (proj1 (forallb_forall _ _) Hf b Hb) kv Hkv) as N.
  cbn beta in N. now rewrite Hk in N.
Qed.

Lemma in_fragment_2 cfg : in_fragment cfg = true -> in_fragment2 cfg = true.
Proof.
  unfold in_fragment, in_fragment2. rewrite !forallb_forall. intros H b Hb. specialize (H b Hb).
  rewrite forallb_forall in *. intros kv Hkv. specialize (H kv Hkv).
  unfold excluded_key in H. unfold excluded_key2.
  destruct (zlist_eqb (fst kv) s_canonicalizehostname), (zlist_eqb (fst kv) s_canonicalizemaxdots);
    try discriminate; exact H.
Qed.

Definition ex_env : env := Env [97;108] [98;111;120;46;108;97;110] [98;111;120;46;111;114;103] [47;104] toyhash (fun _ => false) exec_stub.
