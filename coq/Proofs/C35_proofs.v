(* C35 — the verify / sign wrappers of Model/C35.v.  verify_step_cases says what the three verify
   wrappers do before the library is consulted and carries every statement about a single
   verification; genuine reads the signer's message back field by field (C39's reads_back). *)
From Coq Require Import ZArith List Bool Lia.
From PV Require Import Bytes C39 C39_proofs C35_gen C35.
Import ListNotations.
Open Scope Z_scope.

Definition is_ed (k : keyobj) : bool := match k with KEd _ _ => true | _ => false end.

(* the library behaves as documented: verify returns, or raises its bad-signature exception;
   nacl additionally raises ValueError (wrong signature length), which Ed25519Key catches *)
Definition lib_documented (k : keyobj) (lib : libarg -> list Z -> lres) : Prop :=
  forall a d, lib a d = LAccept \/ lib a d = LInvalid \/ (is_ed k = true /\ lib a d = LValue).

Lemma lookup_In k t v : lookup k t = Some v -> In (k, v) t.
Proof.
  induction t as [|[k' v'] t IH]; cbn [lookup]; [discriminate|].
  destruct (zlist_eqb k k') eqn:E; intros H.
  - injection H as <-. apply zlist_eqb_eq in E. subst k'. left. reflexivity.
  - right. exact (IH H).
Qed.

Section P.
  Variable utf8_ok : list Z -> bool.
  Variable pub_of : Z -> Z.

  (* the names a key object accepts in a signature *)
  Definition accepts (k : keyobj) (nm : list Z) : bool :=
    match k with
    | KRsa _ _ _ => match lookup nm rsa_hashes with Some _ => true | None => false end
    | KEcdsa c _ _ => zlist_eqb nm (ecdsa_ident c)
    | KEd _ _ => zlist_eqb nm s_ed25519
    end.

  Definition arg_pub (a : libarg) : Z :=
    match a with ARsa p _ _ => p | AEcdsa p _ _ => p | AEd p _ => p end.

  (* the last disjunct is the Ed25519 object without any key, which __init__ excludes *)
  Lemma verify_step_cases k msg :
    let nm := fst (get_string msg 0) in
    verify_step utf8_ok pub_of k msg = Answer false \/
    utf8_ok nm = true /\ accepts k nm = true /\
    ((exists a, verify_step utf8_ok pub_of k msg = Call a /\ key_pub pub_of k = Some (arg_pub a)) \/
     k = KEd None None /\ verify_step utf8_ok pub_of k msg = Escapes AttrErr).
  Proof.
    cbv zeta. destruct k as [bits priv pub|c sg v|sg v]; cbn [verify_step accepts key_pub].
    - unfold rsa_step, get_text. destruct (get_string msg 0) as [nm p1]. cbn [fst].
      destruct (utf8_ok nm); [|left; reflexivity].
      destruct (lookup nm rsa_hashes); [|left; reflexivity].
      destruct (get_string msg p1) as [sign ?].
      right. do 2 (split; [reflexivity|]). left. eexists. split; [reflexivity|].
      destruct priv; reflexivity.
    - unfold ecdsa_step, get_text. destruct (get_string msg 0) as [nm p1]. cbn [fst].
      destruct (utf8_ok nm); [|left; reflexivity].
      destruct (zlist_eqb nm (ecdsa_ident c)); [|left; reflexivity]. cbn [negb].
      destruct (get_string msg p1) as [sig ?]. destruct (get_string sig 0) as [rb q1].
      destruct (get_string sig q1) as [sb q2].
      destruct (negb match get_remainder sig q2 with [] => true | _ => false end); [left; reflexivity|].
      destruct ((inflate_long rb false <? 0) || (inflate_long sb false <? 0)); [left; reflexivity|].
      right. do 2 (split; [reflexivity|]). left. eexists. split; reflexivity.
    - unfold ed_step, get_text. destruct (get_string msg 0) as [nm p1]. cbn [fst].
      destruct (utf8_ok nm); [|left; reflexivity].
      destruct (zlist_eqb nm s_ed25519); [|left; reflexivity]. cbn [negb].
      destruct (get_string msg p1) as [sig ?].
      right. do 2 (split; [reflexivity|]).
      destruct sg as [sk|]; [|destruct v as [vk|]];
        [left; eexists; split; reflexivity .. | right; split; reflexivity].
  Qed.

  Lemma total k lib data msg :
    key_wf pub_of k -> lib_documented k lib ->
    exists b, verify_ssh_sig utf8_ok pub_of lib k data msg = Ok b.
  Proof.
    intros Hwf Hlib. unfold verify_ssh_sig.
    destruct (verify_step_cases k msg) as [E|(_ & _ & [(a & E & _)|(-> & E)])]; rewrite E.
    - eauto.
    - destruct (Hlib a data) as [H|[H|[He H]]]; rewrite H; cbn [map_lres]; eauto.
      destruct k; try discriminate. eauto.
    - destruct Hwf.
  Qed.

  Variable rsa_sign : Z -> list Z -> Z -> list Z.
  Variable ec_sign : Z -> list Z -> Z * Z.
  Variable ed_sign : Z -> list Z -> list Z.
  Variable lib : libarg -> list Z -> lres.

  Definition ascii (s : list Z) : bool := forallb (fun c => (0 <=? c) && (c <? 128)) s.

  (* honest signatures are accepted by the library under the matching public key *)
  Definition honest : Prop :=
    (forall sk d h, lib (ARsa (pub_of sk) (rsa_sign sk d h) h) d = LAccept) /\
    (forall sk d, lib (AEcdsa (pub_of sk) (fst (ec_sign sk d)) (snd (ec_sign sk d))) d = LAccept) /\
    (forall sk d, lib (AEd (pub_of sk) (ed_sign sk d)) d = LAccept).

  (* shape of what the library's sign returns *)
  Definition sig_shapes (k : keyobj) : Prop :=
    (forall sk d h, bytes_ok (rsa_sign sk d h) = true /\
                    match k with KRsa bits _ _ => bits <= 8 * Z.of_nat (length (rsa_sign sk d h)) | _ => True end) /\
    (forall sk d, 0 <= fst (ec_sign sk d) /\ 0 <= snd (ec_sign sk d)) /\
    (forall sk d, bytes_ok (ed_sign sk d) = true).

  (* the name RSAKey writes for an algorithm of HASHES (the certificate suffix removed) is again
     in HASHES with the same hash, and is ASCII: checked entry by entry on the generated table *)
  Lemma rsa_table_closed :
    forallb (fun kv => match lookup (strip_cert (fst kv)) rsa_hashes with
                       | Some h => h =? snd kv
                       | None => false
                       end && ascii (strip_cert (fst kv))) rsa_hashes = true.
  Proof. vm_compute. reflexivity. Qed.

  Lemma rsa_names_closed a h :
    lookup a rsa_hashes = Some h ->
    lookup (strip_cert a) rsa_hashes = Some h /\ ascii (strip_cert a) = true.
  Proof.
    intros H. apply lookup_In in H.
    pose proof (proj1 (forallb_forall _ _) rsa_table_closed _ H) as T. cbn [fst snd] in T.
    apply andb_true_iff in T as [T Ha].
    destruct (lookup (strip_cert a) rsa_hashes) as [h'|]; [|discriminate].
    apply Z.eqb_eq in T. subst h'. auto.
  Qed.

  Lemma ecdsa_ident_ascii c : ascii (ecdsa_ident c) = true.
  Proof. unfold ecdsa_ident, curve_name. destruct (c =? 0); [|destruct (c =? 1)]; reflexivity. Qed.

  Lemma genuine k1 k2 sk data alg sigmsg :
    (forall s, ascii s = true -> utf8_ok s = true) ->
    honest -> sig_shapes k1 ->
    key_wf pub_of k1 -> key_wf pub_of k2 -> same_kind k1 k2 ->
    key_pub pub_of k1 = Some (pub_of sk) -> key_pub pub_of k2 = Some (pub_of sk) ->
    match k1 with KRsa _ p _ => p = Some sk | KEcdsa _ s _ => s = Some sk | KEd s _ => s = Some sk end ->
    sign_ssh_data rsa_sign ec_sign ed_sign k1 data alg = Ok sigmsg ->
    verify_ssh_sig utf8_ok pub_of lib k2 data sigmsg = Ok true.
  Proof.
    intros Hascii (Hrsa & Hec & Hed) (Srsa & Sec & _) _ _ Hkind _ Hp2 Hsk Hsign.
    unfold verify_ssh_sig.
    destruct k1 as [bits1 priv1 pub1|c1 sg1 v1|sg1 v1]; subst;
      destruct k2 as [bits2 priv2 pub2|c2 sg2 v2|sg2 v2]; cbn [same_kind] in Hkind; try contradiction;
      cbn [sign_ssh_data] in Hsign; cbn [verify_step key_pub] in *.
    - (* RSA: name and signature blob come back; no left padding since the blob is long enough *)
      subst bits2.
      set (a := match alg with Some a => a | None => s_ssh_rsa end) in *.
      destruct (lookup a rsa_hashes) as [h|] eqn:El; [|discriminate].
      destruct (rsa_names_closed a h El) as (El' & Ha).
      destruct (Srsa sk data h) as [_ Hlen].
      destruct (two_strings _ _ _ Hsign) as (p1 & p2 & G1 & G2).
      unfold rsa_step, get_text. rewrite G1, (Hascii _ Ha), El', G2.
      replace (0 <? _) with false by lia. cbn [map_lres].
      assert (Hk : match priv2 with Some sk0 => pub_of sk0 | None => pub2 end = pub_of sk)
        by (destruct priv2; injection Hp2 as ->; reflexivity).
      rewrite Hk, Hrsa. reflexivity.
    - (* ECDSA: the inner blob is exactly the two mpints r, s, both non-negative *)
      subst c2.
      destruct (ec_sign sk data) as [r s] eqn:Es.
      apply bind_ok in Hsign as (inner & Ei & Hsign).
      destruct (two_strings _ _ _ Hsign) as (p1 & p2 & G1 & G2).
      destruct (reads_back_whole [FMpint r; FMpint s] inner eq_refl Ei)
        as (q1 & (rb & M1 & Mr) & q2 & (sb & M2 & Ms) & Mq).
      unfold ecdsa_step, get_text.
      rewrite G1, (Hascii _ (ecdsa_ident_ascii c1)), zlist_eqb_refl.
      cbn [negb]. rewrite G2, M1, M2, Mr, Ms.
      unfold get_remainder. rewrite Mq, skipn_all. cbn [negb].
      specialize (Sec sk data). specialize (Hec sk data). rewrite Es in Sec, Hec. cbn [fst snd] in Sec, Hec.
      replace ((r <? 0) || (s <? 0)) with false by lia.
      injection Hp2 as ->. rewrite Hec. reflexivity.
    - destruct (two_strings _ _ _ Hsign) as (p1 & p2 & G1 & G2).
      unfold ed_step, get_text.
      rewrite G1, (Hascii s_ed25519 eq_refl), zlist_eqb_refl. cbn [negb]. rewrite G2.
      destruct sg2 as [sk2|]; [|destruct v2 as [vk|]; [|discriminate]];
        injection Hp2 as ->; rewrite Hed; reflexivity.
  Qed.
End P.
