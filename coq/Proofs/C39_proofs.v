(* C39 — lemmas about the Message codec of Model/C39.v: the integer codec
   (deflate_long / inflate_long), reads at a cursor, and the round trip of typed field lists.
   They serve Props/C39_props.v and the properties whose models are built on this codec. *)
From PV Require Import Bytes ListFacts C39.
From Coq Require Import ZArith List Bool Lia.
Import ListNotations.
Open Scope Z_scope.

Lemma pow256_pos k : 0 < 256 ^ Z.of_nat k.
Proof. apply Z.pow_pos_nonneg; lia. Qed.

Lemma pow256_succ k : 256 ^ Z.of_nat (S k) = 256 * 256 ^ Z.of_nat k.
Proof. rewrite Nat2Z.inj_succ, Z.pow_succ_r by lia. reflexivity. Qed.

Lemma pow256_add a b : 256 ^ Z.of_nat (a + b) = 256 ^ Z.of_nat a * 256 ^ Z.of_nat b.
Proof. rewrite Nat2Z.inj_add, Z.pow_add_r by lia. reflexivity. Qed.

Lemma be_decode_repeat0 k : be_decode (repeat 0 k) = 0.
Proof.
  induction k as [|k IH]; [reflexivity|].
  cbn [repeat]. rewrite be_decode_cons, IH. lia.
Qed.

Lemma be_decode_repeat255 k : be_decode (repeat 255 k) = 256 ^ Z.of_nat k - 1.
Proof.
  induction k as [|k IH]; [reflexivity|].
  cbn [repeat]. rewrite be_decode_cons, IH, repeat_length, pow256_succ. lia.
Qed.

Lemma shiftr32 n : Z.shiftr n 32 = n / 4294967296.
Proof. rewrite Z.shiftr_div_pow2 by lia. reflexivity. Qed.

Lemma land32 n : Z.land n (2 ^ 32 - 1) = n mod 4294967296.
Proof. change (2 ^ 32 - 1) with (Z.ones 32). rewrite Z.land_ones by lia. reflexivity. Qed.

Lemma shiftl32 n : Z.shiftl n 32 = n * 4294967296.
Proof. rewrite Z.shiftl_mul_pow2 by lia. reflexivity. Qed.

(* V r s is the value of the two's complement numeral ...rrr s: the bytes s below infinitely many
   copies of the sign r, which is 0 (bytes 00) or -1 (bytes FF) *)
Definition V (r : Z) (s : list Z) : Z := r * 256 ^ Z.of_nat (length s) + be_decode s.

Lemma V_cons r b s : V r (b :: s) = (r * 256 + b) * 256 ^ Z.of_nat (length s) + be_decode s.
Proof. unfold V. rewrite be_decode_cons. cbn [length]. rewrite pow256_succ. ring. Qed.

(* a sign byte in front is absorbed by the sign extension *)
Lemma V_sign_byte r b s : r * 256 + b = r -> V r (b :: s) = V r s.
Proof. intros H. rewrite V_cons, H. reflexivity. Qed.

Lemma limbs_unfold fuel n s :
  limbs fuel n s =
  if (n =? 0) || (n =? -1) then (n, s)
  else match fuel with
       | O => (n, s)
       | S f => limbs f (Z.shiftr n 32) (be_encode 4 (Z.land n (2 ^ 32 - 1)) ++ s)
       end.
Proof. destruct fuel; reflexivity. Qed.

(* each round moves the low limb of n into s: V is the loop invariant *)
Lemma limbs_inv fuel : forall n s r s',
  limbs fuel n s = (r, s') -> bytes_ok s = true ->
  bytes_ok s' = true /\ V r s' = V n s.
Proof.
  induction fuel as [|f IH]; intros n s r s' H Hs; rewrite limbs_unfold in H;
    destruct ((n =? 0) || (n =? -1)); try (injection H as <- <-; auto).
  apply IH in H.
  - destruct H as [H1 H2]. split; [exact H1|]. rewrite H2.
    unfold V. rewrite app_length, be_encode_length, be_decode_app.
    rewrite be_decode_encode_mod, pow256_add, shiftr32, land32.
    change (256 ^ Z.of_nat 4) with 4294967296. rewrite Z.mod_mod by lia.
    rewrite (Z.div_mod n 4294967296) at 3 by lia. ring.
  - rewrite bytes_ok_app, be_encode_ok, Hs. reflexivity.
Qed.

Lemma limbs_term fuel : forall n s,
  - 4294967296 ^ Z.of_nat fuel <= n < 4294967296 ^ Z.of_nat fuel ->
  fst (limbs fuel n s) = 0 \/ fst (limbs fuel n s) = -1.
Proof.
  induction fuel as [|f IH]; intros n s H; rewrite limbs_unfold;
    (destruct (Z.eqb_spec n 0) as [->|E0]; [left; reflexivity|]);
    (destruct (Z.eqb_spec n (-1)) as [->|E1]; [right; reflexivity|]).
  - change (4294967296 ^ Z.of_nat 0) with 1 in H. lia.
  - cbn [orb]. apply IH. rewrite shiftr32.
    rewrite Nat2Z.inj_succ, Z.pow_succ_r in H by lia.
    split; [apply Z.div_le_lower_bound | apply Z.div_lt_upper_bound]; lia.
Qed.

Lemma limb_fuel_bound n :
  - 4294967296 ^ Z.of_nat (limb_fuel n) <= n < 4294967296 ^ Z.of_nat (limb_fuel n).
Proof.
  unfold limb_fuel.
  pose proof (Z.log2_nonneg (Z.abs n)) as HL.
  set (L := Z.log2 (Z.abs n)) in *.
  assert (Hq : 0 <= L / 32) by (apply Z.div_pos; lia).
  rewrite Z2Nat.id by lia.
  change 4294967296 with (2 ^ 32). rewrite <- Z.pow_mul_r by lia.
  (* |n| < 2 ^ (L + 1), and L + 1 <= 32 * (L / 32 + 2) *)
  assert (Hab : Z.abs n < 2 ^ (32 * (L / 32 + 2))); [|lia].
  destruct (Z.eq_dec (Z.abs n) 0) as [E|E]; [rewrite E; apply Z.pow_pos_nonneg; lia|].
  apply Z.log2_lt_pow2; [lia|]. fold L.
  pose proof (Z.div_mod L 32 ltac:(lia)). pose proof (Z.mod_pos_bound L 32 ltac:(lia)). lia.
Qed.

Lemma limbs_spec n : exists r s,
  limbs (limb_fuel n) n [] = (r, s) /\ (r = 0 \/ r = -1) /\ bytes_ok s = true /\ V r s = n.
Proof.
  destruct (limbs (limb_fuel n) n []) as [r s] eqn:EL. exists r, s.
  pose proof (limbs_term (limb_fuel n) n [] (limb_fuel_bound n)) as Hr. rewrite EL in Hr.
  destruct (limbs_inv _ _ _ _ _ EL eq_refl) as [Hs HV].
  repeat split; [exact Hr | exact Hs |]. rewrite HV. unfold V. cbn. lia.
Qed.

(* the for loop breaks at the first byte that is not the sign byte *)
Lemma strip_test r b :
  r = 0 \/ r = -1 ->
  if ((r =? 0) && negb (b =? 0)) || ((r =? -1) && negb (b =? 255))
  then (r = 0 -> b <> 0) /\ (r = -1 -> b <> 255)
  else r * 256 + b = r.
Proof.
  intros [-> | ->]; [destruct (Z.eqb_spec b 0) | destruct (Z.eqb_spec b 255)];
    cbn [Z.eqb Pos.eqb andb orb negb]; lia.
Qed.

Lemma strip_spec r : forall s,
  (r = 0 \/ r = -1) -> bytes_ok s = true ->
  exists b t,
    match strip r s with Some t => t | None => if r =? 0 then [0] else [255] end = b :: t /\
    bytes_ok (b :: t) = true /\ V r (b :: t) = V r s /\
    (t = [] \/ (r = 0 -> b <> 0) /\ (r = -1 -> b <> 255)).
Proof.
  induction s as [|b s IH]; intros Hr Hs.
  - cbn [strip]. destruct Hr as [-> | ->]; [exists 0, [] | exists 255, []]; repeat split; auto.
  - cbn [strip]. pose proof (strip_test r b Hr) as T.
    destruct (((r =? 0) && negb (b =? 0)) || ((r =? -1) && negb (b =? 255))).
    + exists b, s. auto.
    + rewrite bytes_ok_cons in Hs. apply andb_true_iff in Hs as [_ Hs].
      destruct (IH Hr Hs) as (b' & t & E & Hbt & HV & Hm).
      exists b', t. rewrite (V_sign_byte r b s T). auto.
Qed.

(* minimal tests the second byte only behind a first byte 0 or 255.  Its match on those two literals
   reduces once b is taken apart as far as the eight bits of 255; every other b gives true at once *)
Lemma minimal_cons b t : t = [] \/ b <> 0 /\ b <> 255 -> minimal (b :: t) = true.
Proof.
  intros H. unfold minimal.
  destruct b as [|p|p]; [destruct H as [->|[]]; [reflexivity|lia] | | reflexivity].
  do 8 (try (destruct p as [p|p|]; try reflexivity)).
  destruct H as [->|[]]; [reflexivity|lia].
Qed.

Lemma sval_V s : sval s = V (if 128 <=? hd 0 s then -1 else 0) s.
Proof. unfold sval, V. destruct (128 <=? hd 0 s); ring. Qed.

Lemma deflate_minimal :
  forall n : Z,
    let s := deflate_long n true in
    bytes_ok s = true /\ (1 <= length s)%nat /\ sval s = n /\ minimal s = true.
Proof.
  intros n. cbv zeta. unfold deflate_long.
  destruct (limbs_spec n) as (r & s & -> & Hr & Hs & <-).
  destruct (strip_spec r s Hr Hs) as (b & t & -> & Hbt & <- & Hmin). cbn [hd].
  pose proof Hbt as Hb. rewrite bytes_ok_cons in Hb. apply andb_true_iff in Hb as [Hb _].
  apply byte_ok_iff in Hb.
  destruct Hr as [-> | ->].
  - (* non-negative: 00 goes in front when the top bit of b is set *)
    change (0 =? 0) with true. change (0 =? -1) with false. cbn [andb].
    destruct (Z.leb_spec 128 b) as [Hge|Hlt].
    + split; [exact Hbt|]. split; [cbn [length]; lia|]. split.
      * rewrite sval_V. apply V_sign_byte. reflexivity.
      * apply Z.leb_le. exact Hge.
    + split; [exact Hbt|]. split; [cbn [length]; lia|]. split.
      * rewrite sval_V. cbn [hd]. destruct (Z.leb_spec 128 b); [lia|reflexivity].
      * apply minimal_cons. destruct Hmin as [->|[H0 _]]; [left; reflexivity|right; lia].
  - (* negative: FF goes in front when the top bit of b is clear *)
    change (-1 =? 0) with false. change (-1 =? -1) with true. cbn [andb].
    destruct (Z.ltb_spec b 128) as [Hlt|Hge].
    + split; [exact Hbt|]. split; [cbn [length]; lia|]. split.
      * rewrite sval_V. apply V_sign_byte. reflexivity.
      * apply Z.ltb_lt. exact Hlt.
    + split; [exact Hbt|]. split; [cbn [length]; lia|]. split.
      * rewrite sval_V. cbn [hd]. destruct (Z.leb_spec 128 b); [reflexivity|lia].
      * apply minimal_cons. destruct Hmin as [->|[_ H255]]; [left; reflexivity|right; lia].
Qed.

(* the unsigned big-endian form without leading zeros *)
Lemma deflate_unsigned n :
  0 <= n ->
  let s := deflate_long n false in
  bytes_ok s = true /\ be_decode s = n /\
  (forall k, n < 256 ^ Z.of_nat k -> (1 <= k)%nat -> (length s <= k)%nat).
Proof.
  intros Hn. cbv zeta. unfold deflate_long.
  destruct (limbs_spec n) as (r & s & -> & Hr & Hs & HVn).
  assert (Hr0 : r = 0).
  { destruct Hr as [->| ->]; [reflexivity|]. exfalso. unfold V in HVn.
    pose proof (be_decode_range s Hs). lia. }
  subst r. clear Hr.
  destruct (strip_spec 0 s (or_introl eq_refl) Hs) as (b & t & -> & Hbt & HVt & Hmin).
  rewrite HVn in HVt. unfold V in HVt.
  split; [exact Hbt|]. split; [lia|].
  intros k Hk Hk1. cbn [length].
  destruct Hmin as [->|[Hb0 _]]; [cbn [length]; lia|]. specialize (Hb0 eq_refl).
  rewrite bytes_ok_cons in Hbt. apply andb_true_iff in Hbt as [Hb Ht].
  apply byte_ok_iff in Hb. rewrite be_decode_cons in HVt.
  pose proof (be_decode_range t Ht) as Hrt.
  pose proof (pow256_pos (length t)) as Hp.
  (* the leading byte is not zero, so 256 ^ length t <= n < 256 ^ k *)
  assert (Hlow : 256 ^ Z.of_nat (length t) <= n) by nia.
  assert (Hlt : Z.of_nat (length t) < Z.of_nat k).
  { apply (Z.pow_lt_mono_r_iff 256); lia. }
  lia.
Qed.

Lemma inflate_loop_spec k : forall s out,
  length s = (4 * k)%nat -> inflate_loop out s = be_decode_acc out s.
Proof.
  induction k as [|k IH]; intros s out H.
  - destruct s; [reflexivity|discriminate].
  - destruct s as [|a [|b [|c [|d r]]]]; cbn [length] in H; try lia.
    change (inflate_loop out (a :: b :: c :: d :: r))
      with (inflate_loop (Z.shiftl out 32 + be_decode [a; b; c; d]) r).
    rewrite IH by lia. cbn [be_decode_acc]. f_equal.
    rewrite shiftl32. unfold be_decode. cbn [be_decode_acc]. ring.
Qed.

Lemma shiftl1_8k k : Z.shiftl 1 (8 * Z.of_nat k) = 256 ^ Z.of_nat k.
Proof. rewrite Z.shiftl_1_l, Z.pow_mul_r by lia. reflexivity. Qed.

(* inflate_long pads to whole words with the sign byte, which leaves the signed value alone *)
Lemma inflate_sval s : inflate_long s false = sval s.
Proof.
  unfold inflate_long, sval. cbv zeta. cbn [negb andb].
  pose proof (Nat.div_mod (length s) 4 ltac:(lia)) as Hdm.
  pose proof (Nat.mod_upper_bound (length s) 4 ltac:(lia)) as Hm.
  set (m := (length s mod 4)%nat) in *. set (q := (length s / 4)%nat) in *.
  destruct (Nat.eqb_spec m 0) as [E|E].
  - rewrite (inflate_loop_spec q) by lia. fold (be_decode s).
    destruct s as [|b t].
    + reflexivity.
    + replace (0 <? Z.of_nat (length (b :: t))) with true
        by (symmetry; apply Z.ltb_lt; cbn [length]; lia).
      cbn [andb]. rewrite shiftl1_8k. reflexivity.
  - assert (Hlen : (0 < length s)%nat) by lia.
    replace (0 <? Z.of_nat (length s)) with true by (symmetry; apply Z.ltb_lt; lia).
    cbn [andb].
    destruct (128 <=? hd 0 s);
      rewrite (inflate_loop_spec (S q)) by (rewrite app_length, repeat_length; lia).
    + fold (be_decode (repeat 255 (4 - m) ++ s)).
      rewrite shiftl1_8k, be_decode_app, be_decode_repeat255, app_length, repeat_length, pow256_add.
      ring.
    + fold (be_decode (repeat 0 (4 - m) ++ s)).
      rewrite be_decode_app, be_decode_repeat0. ring.
Qed.

Lemma inflate_deflate : forall n : Z, inflate_long (deflate_long n true) false = n.
Proof. intros n. rewrite inflate_sval. apply deflate_minimal. Qed.

Lemma pack_u32_ok n e : pack_u32 n = Ok e -> 0 <= n < 2 ^ 32 /\ e = be_encode 4 n.
Proof.
  unfold pack_u32.
  destruct (Z.leb_spec 0 n); destruct (Z.ltb_spec n (2 ^ 32)); cbn [andb]; intros He;
    try discriminate.
  injection He as <-. split; [lia|reflexivity].
Qed.

Lemma pack_u64_ok n e : pack_u64 n = Ok e -> 0 <= n < 2 ^ 64 /\ e = be_encode 8 n.
Proof.
  unfold pack_u64.
  destruct (Z.leb_spec 0 n); destruct (Z.ltb_spec n (2 ^ 64)); cbn [andb]; intros He;
    try discriminate.
  injection He as <-. split; [lia|reflexivity].
Qed.

Lemma pack_u32_total v : (0 <=? v) && (v <? 2 ^ 32) = true -> pack_u32 v = Ok (be_encode 4 v).
Proof. intros H. unfold pack_u32. rewrite H. reflexivity. Qed.

Lemma pack_u64_total v : (0 <=? v) && (v <? 2 ^ 64) = true -> pack_u64 v = Ok (be_encode 8 v).
Proof. intros H. unfold pack_u64. rewrite H. reflexivity. Qed.

Lemma add_string_ok s e :
  add_string s = Ok e ->
  Z.of_nat (length s) < 2 ^ 32 /\ e = be_encode 4 (Z.of_nat (length s)) ++ s.
Proof.
  unfold add_string. intros H. apply bind_ok in H as (h & Eh & H).
  apply pack_u32_ok in Eh as [Hl ->]. injection H as <-. split; [lia|reflexivity].
Qed.

Lemma add_string_total s :
  Z.of_nat (length s) < 2 ^ 32 -> add_string s = Ok (be_encode 4 (Z.of_nat (length s)) ++ s).
Proof.
  intros H. unfold add_string. rewrite pack_u32_total; [reflexivity|].
  apply andb_true_iff. split; [apply Z.leb_le; lia | apply Z.ltb_lt; exact H].
Qed.

Lemma encode_all_cons f fs bs :
  encode_all (f :: fs) = Ok bs ->
  exists a b, encode_field f = Ok a /\ encode_all fs = Ok b /\ bs = a ++ b.
Proof.
  cbn [encode_all]. intros H.
  apply bind_ok in H as (a & Ea & H). apply bind_ok in H as (b & Eb & H).
  injection H as <-. eauto.
Qed.

(* every encoder writes bytes (the premise "that encoders provably establish" of DESIGN.md section 3):
   what the bytes_ok clauses of field_wf are for.  Reading back does not need them, see decodable,
   so no lemma below uses these four *)
Lemma add_string_bytes_ok s e : bytes_ok s = true -> add_string s = Ok e -> bytes_ok e = true.
Proof.
  intros Hs He. apply add_string_ok in He as [_ ->].
  rewrite bytes_ok_app, be_encode_ok, Hs. reflexivity.
Qed.

Lemma join_comma_bytes_ok l :
  forallb (fun s => bytes_ok s && no_comma s) l = true -> bytes_ok (join_comma l) = true.
Proof.
  induction l as [|x l IH]; [reflexivity|].
  cbn [forallb]. intros H. apply andb_true_iff in H as [Hx Hl].
  apply andb_true_iff in Hx as [Hx _].
  destruct l as [|y l']; [exact Hx|].
  change (join_comma (x :: y :: l')) with (x ++ 44 :: join_comma (y :: l')).
  rewrite bytes_ok_app, Hx, bytes_ok_cons. apply IH. exact Hl.
Qed.

Lemma encode_field_bytes_ok f e : field_wf f = true -> encode_field f = Ok e -> bytes_ok e = true.
Proof.
  pose proof (fun n => proj1 (deflate_minimal n)) as Hd. cbv zeta in Hd.
  intros Hwf He. destruct f as [b|b|n|n|n|s|l|n]; cbn [encode_field field_wf] in *.
  - injection He as <-. cbn. rewrite Hwf. reflexivity.
  - injection He as <-. destruct b; reflexivity.
  - apply pack_u32_ok in He as [_ ->]. apply be_encode_ok.
  - apply pack_u64_ok in He as [_ ->]. apply be_encode_ok.
  - destruct (big_int <=? n).
    + apply bind_ok in He as (e0 & Ea & He). injection He as <-.
      rewrite bytes_ok_cons. exact (add_string_bytes_ok _ _ (Hd n) Ea).
    + apply pack_u32_ok in He as [_ ->]. apply be_encode_ok.
  - exact (add_string_bytes_ok _ _ Hwf He).
  - apply andb_true_iff in Hwf as [_ Hl].
    exact (add_string_bytes_ok _ _ (join_comma_bytes_ok l Hl) He).
  - unfold add_mpint in He. destruct (n =? 0).
    + exact (add_string_bytes_ok [] e eq_refl He).
    + exact (add_string_bytes_ok _ _ (Hd n) He).
Qed.

Lemma encode_all_bytes_ok fs : forall bs,
  forallb field_wf fs = true -> encode_all fs = Ok bs -> bytes_ok bs = true.
Proof.
  induction fs as [|f fs IH]; intros bs Hwf He.
  - injection He as <-. reflexivity.
  - cbn [forallb] in Hwf. apply andb_true_iff in Hwf as [Hf Hfs].
    apply encode_all_cons in He as (a & b & Ea & Eb & ->).
    rewrite bytes_ok_app, (encode_field_bytes_ok f a Hf Ea), (IH b Hfs Eb). reflexivity.
Qed.

(* Reads at a cursor.  The cursor is described by what lies at it, skipn pos buf = x ++ rest:
   the read returns x and moves on by length x, and skipn_past re-establishes the description
   for the next read. *)

Lemma get_bytes_at buf pos n x rest :
  skipn pos buf = x ++ rest -> n = Z.of_nat (length x) ->
  get_bytes buf pos n = (x, (pos + length x)%nat).
Proof.
  intros Hs ->. unfold get_bytes. cbv zeta. rewrite Hs.
  rewrite Z.min_l by (rewrite app_length; lia).
  rewrite Nat2Z.id, firstn_app_exact, Z.ltb_irrefl. reflexivity.
Qed.

(* a big-endian number of k bytes, as get_int (k = 4) and get_int64 (k = 8) read it *)
Lemma get_be_at buf pos k v rest :
  0 <= v < 256 ^ Z.of_nat k -> skipn pos buf = be_encode k v ++ rest ->
  (let '(b, p) := get_bytes buf pos (Z.of_nat k) in (be_decode b, p)) = (v, (pos + k)%nat).
Proof.
  intros Hv Hs.
  rewrite (get_bytes_at buf pos _ _ rest Hs) by (rewrite be_encode_length; reflexivity).
  rewrite be_decode_encode, be_encode_length by exact Hv. reflexivity.
Qed.

Lemma get_int_at buf pos v e rest :
  pack_u32 v = Ok e -> skipn pos buf = e ++ rest ->
  get_int buf pos = (v, (pos + length e)%nat).
Proof. intros He Hs. apply pack_u32_ok in He as [Hv ->]. exact (get_be_at buf pos 4 v rest Hv Hs). Qed.

Lemma get_int64_at buf pos v e rest :
  pack_u64 v = Ok e -> skipn pos buf = e ++ rest ->
  get_int64 buf pos = (v, (pos + length e)%nat).
Proof. intros He Hs. apply pack_u64_ok in He as [Hv ->]. exact (get_be_at buf pos 8 v rest Hv Hs). Qed.

Lemma get_string_at buf pos s e rest :
  add_string s = Ok e -> skipn pos buf = e ++ rest ->
  get_string buf pos = (s, (pos + length e)%nat).
Proof.
  unfold add_string. intros He Hs. apply bind_ok in He as (h & Eh & He). injection He as <-.
  rewrite <- app_assoc in Hs. unfold get_string.
  rewrite (get_int_at buf pos _ h _ Eh Hs).
  rewrite (get_bytes_at buf _ _ s rest (skipn_past _ _ _ _ Hs) eq_refl).
  rewrite app_length, Nat.add_assoc. reflexivity.
Qed.

(* get_bytes zero-pads a short read only when fewer than 1 << 20 bytes were asked for *)
Lemma get_bytes_pad_bound buf pos n :
  snd (get_bytes buf pos n) = (pos + length (fst (get_bytes buf pos n)))%nat \/ n < 2 ^ 20.
Proof.
  unfold get_bytes. cbv zeta.
  destruct (_ <? n); [destruct (Z.ltb_spec n (2 ^ 20)); [right; assumption|] |]; left; reflexivity.
Qed.

Lemma split_aux_app x : forall cur tail,
  no_comma x = true ->
  split_comma_aux cur (x ++ tail) = split_comma_aux (rev x ++ cur) tail.
Proof.
  induction x as [|c x IH]; intros cur tail H; [reflexivity|].
  unfold no_comma in H. cbn [forallb] in H. apply andb_true_iff in H as [Hc Hx].
  cbn [app rev split_comma_aux].
  destruct (c =? 44); [discriminate|].
  rewrite IH by exact Hx. rewrite <- app_assoc. reflexivity.
Qed.

Lemma split_join : forall l cur x,
  forallb no_comma (x :: l) = true ->
  split_comma_aux cur (join_comma (x :: l)) = (rev cur ++ x) :: l.
Proof.
  induction l as [|y l IH]; intros cur x H; cbn [forallb] in H; apply andb_true_iff in H as [Hx Hl].
  - change (join_comma [x]) with x. rewrite <- (app_nil_r x) at 1.
    rewrite split_aux_app by exact Hx. cbn [split_comma_aux].
    rewrite rev_app_distr, rev_involutive. reflexivity.
  - change (join_comma (x :: y :: l)) with (x ++ 44 :: join_comma (y :: l)).
    rewrite split_aux_app by exact Hx. cbn [split_comma_aux].
    change (44 =? 44) with true. cbv iota.
    rewrite (IH [] y Hl). rewrite rev_app_distr, rev_involutive. reflexivity.
Qed.

(* what reading a field back needs of it: only that a name-list can be split again.
   field_wf asks for more (contents are bytes, an adaptive integer is not negative). *)
Definition decodable (f : field) : bool :=
  match f with
  | FList l => negb (match l with [] => true | _ => false end) && forallb no_comma l
  | _ => true
  end.

Lemma wf_decodable fs : forallb field_wf fs = true -> forallb decodable fs = true.
Proof.
  induction fs as [|f fs IH]; [reflexivity|]. cbn [forallb].
  intros H. apply andb_true_iff in H as [Hf Hfs]. rewrite (IH Hfs), andb_true_r.
  destruct f as [| | | | | |l|]; try reflexivity.
  cbn [field_wf decodable] in *. apply andb_true_iff in Hf as [-> Hl]. clear -Hl.
  induction l as [|x l IHl]; [reflexivity|].
  cbn [forallb] in *. apply andb_true_iff in Hl as [Hx Hl].
  apply andb_true_iff in Hx as [_ ->]. exact (IHl Hl).
Qed.

(* below 0xff000000 the four-byte form does not begin with FF, the marker of the long form *)
Lemma be_encode4_top n :
  0 <= n < big_int -> exists b t, be_encode 4 n = b :: t /\ length t = 3%nat /\ b <> 255.
Proof.
  intros Hn. unfold big_int in Hn.
  exists (n / 256 / 256 / 256 mod 256), [n / 256 / 256 mod 256; n / 256 mod 256; n mod 256].
  split; [reflexivity|]. split; [reflexivity|].
  assert (H3 : 0 <= n / 256 / 256 / 256 < 255).
  { split; [repeat (apply Z.div_pos; [|lia]); lia|].
    repeat (apply Z.div_lt_upper_bound; [lia|]). lia. }
  rewrite Z.mod_small by lia. lia.
Qed.

Lemma field_roundtrip f e buf pos rest :
  decodable f = true -> encode_field f = Ok e -> skipn pos buf = e ++ rest ->
  decode_field (kind_of f) buf pos = (f, (pos + length e)%nat).
Proof.
  intros Hwf He Hs.
  destruct f as [b|b|n|n|n|s|l|n]; cbn [kind_of decode_field encode_field decodable] in *.
  - injection He as <-. rewrite (get_bytes_at buf pos 1 [b] rest Hs eq_refl). reflexivity.
  - injection He as <-. rewrite (get_bytes_at buf pos 1 _ rest Hs eq_refl). destruct b; reflexivity.
  - rewrite (get_int_at buf pos n e rest He Hs). reflexivity.
  - rewrite (get_int64_at buf pos n e rest He Hs). reflexivity.
  - unfold big_int in He.
    destruct (Z.leb_spec 4278190080 n) as [Hbig|Hsmall].
    + (* FF, then the mpint form *)
      apply bind_ok in He as (e0 & Ea & He). injection He as <-.
      change ((255 :: e0) ++ rest) with ([255] ++ e0 ++ rest) in Hs.
      rewrite (get_bytes_at buf pos 1 [255] _ Hs eq_refl).
      cbn [hd]. change (255 =? 255) with true. cbv iota.
      rewrite (get_string_at buf _ _ e0 rest Ea (skipn_past _ _ _ _ Hs)), inflate_deflate.
      cbn [length]. f_equal. lia.
    + (* four bytes: the first is read alone and tested, then the other three *)
      apply pack_u32_ok in He as [Hn ->].
      pose proof (be_decode_encode 4 n Hn) as Hdec.
      destruct (be_encode4_top n) as (b & t & E & Ht & Hb); [unfold big_int; lia|].
      rewrite E in Hs, Hdec |- *.
      change ((b :: t) ++ rest) with ([b] ++ t ++ rest) in Hs.
      rewrite (get_bytes_at buf pos 1 [b] _ Hs eq_refl). cbn [hd].
      destruct (Z.eqb_spec b 255) as [E255|_]; [contradiction|].
      rewrite (get_bytes_at buf _ 3 t rest (skipn_past _ _ _ _ Hs)) by (rewrite Ht; reflexivity).
      cbn [app length]. rewrite Hdec, Ht. f_equal. lia.
  - rewrite (get_string_at buf pos s e rest He Hs). reflexivity.
  - rewrite (get_string_at buf pos _ e rest He Hs).
    apply andb_true_iff in Hwf as [Hne Hall].
    destruct l as [|x l]; [discriminate|].
    unfold split_comma. rewrite (split_join l [] x Hall). reflexivity.
  - unfold add_mpint in He.
    destruct (Z.eqb_spec n 0) as [->|Hn]; rewrite (get_string_at buf pos _ e rest He Hs);
      [|rewrite inflate_deflate]; reflexivity.
Qed.

Lemma roundtrip_at : forall (fs : list field) (buf : list Z) (pos : nat) (bs rest : list Z),
  forallb decodable fs = true ->
  encode_all fs = Ok bs ->
  skipn pos buf = bs ++ rest ->
  decode_all (map kind_of fs) buf pos = (fs, (pos + length bs)%nat).
Proof.
  induction fs as [|f fs IH]; intros buf pos bs rest Hwf He Hs.
  - injection He as <-. cbn. f_equal. lia.
  - cbn [forallb] in Hwf. apply andb_true_iff in Hwf as [Hf Hfs].
    apply encode_all_cons in He as (a & b & Ea & Eb & ->).
    rewrite <- app_assoc in Hs. cbn [map decode_all].
    rewrite (field_roundtrip f a buf pos _ Hf Ea Hs).
    rewrite (IH buf _ b rest Hfs Eb (skipn_past _ _ _ _ Hs)).
    rewrite app_length, Nat.add_assoc. reflexivity.
Qed.

Lemma roundtrip :
  forall (fs : list field) (bs rest : list Z),
    forallb field_wf fs = true ->
    encode_all fs = Ok bs ->
    decode_all (map kind_of fs) (bs ++ rest) 0 = (fs, length bs).
Proof.
  intros fs bs rest Hwf He.
  exact (roundtrip_at fs (bs ++ rest) 0 bs rest (wf_decodable fs Hwf) He eq_refl).
Qed.

Lemma roundtrip_whole fs bs :
  forallb decodable fs = true -> encode_all fs = Ok bs ->
  decode_all (map kind_of fs) bs 0 = (fs, length bs).
Proof.
  intros Hd He. refine (roundtrip_at fs bs 0 bs [] Hd He _). symmetry. apply app_nil_r.
Qed.

(* decode_all told as a chain of reads, each starting where the one before ended, in the terms of
   a parser that calls get_string itself: a string is what get_string returns, an mpint is what
   inflate_long makes of it *)
Fixpoint reads_back (fs : list field) (buf : list Z) (pos stop : nat) : Prop :=
  match fs with
  | [] => pos = stop
  | f :: fs =>
      exists p,
        match f with
        | FString a => get_string buf pos = (a, p)
        | FMpint n => exists s, get_string buf pos = (s, p) /\ inflate_long s false = n
        | _ => decode_field (kind_of f) buf pos = (f, p)
        end /\ reads_back fs buf p stop
  end.

Lemma decode_all_reads fs : forall buf pos stop,
  decode_all (map kind_of fs) buf pos = (fs, stop) -> reads_back fs buf pos stop.
Proof.
  induction fs as [|f fs IH]; intros buf pos stop H; cbn [map decode_all] in H.
  - injection H as ->. reflexivity.
  - destruct (decode_field (kind_of f) buf pos) as [f' p] eqn:D.
    destruct (decode_all (map kind_of fs) buf p) as [fs' stop'] eqn:A.
    injection H as -> -> ->. exists p. split; [|exact (IH buf p stop A)].
    destruct f; try exact D; cbn [kind_of decode_field] in D;
      destruct (get_string buf pos) as [r q]; injection D as <- <-; eauto.
Qed.

Lemma reads_back_whole fs bs :
  forallb decodable fs = true -> encode_all fs = Ok bs -> reads_back fs bs 0 (length bs).
Proof. intros Hd He. apply decode_all_reads, roundtrip_whole; assumption. Qed.

Lemma two_strings a b bs :
  encode_all [FString a; FString b] = Ok bs ->
  exists p1 p2, get_string bs 0 = (a, p1) /\ get_string bs p1 = (b, p2).
Proof.
  intros He.
  destruct (reads_back_whole [FString a; FString b] bs eq_refl He) as (p1 & G1 & p2 & G2 & _). eauto.
Qed.

Lemma encode_injective :
  forall fs1 fs2 bs,
    forallb field_wf fs1 = true -> forallb field_wf fs2 = true ->
    map kind_of fs1 = map kind_of fs2 ->
    encode_all fs1 = Ok bs -> encode_all fs2 = Ok bs -> fs1 = fs2.
Proof.
  intros fs1 fs2 bs W1 W2 K E1 E2.
  pose proof (roundtrip_whole fs1 bs (wf_decodable fs1 W1) E1) as R1.
  pose proof (roundtrip_whole fs2 bs (wf_decodable fs2 W2) E2) as R2.
  rewrite K in R1. rewrite R1 in R2. injection R2 as ->. reflexivity.
Qed.
