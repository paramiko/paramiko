(* C21 -- lemmas.  What a step does to one channel c is first read off the model ([cstep]: which
   channel function runs on c, what the user read from c); the relation [lstep] then abstracts
   that to the two buffers and the flag together with the step's contribution to c's DATA /
   EXTENDED_DATA projections.  The stream theorems are inductions over the history that only use
   [lstep]. *)
From PV Require Import Bytes ListFacts C21_gen C21.
Open Scope Z_scope.

Lemma Merge_sym {A} (a b l : list A) : Merge a b l -> Merge b a l.
Proof. induction 1; now constructor. Qed.

Lemma Merge_app_l {A} (p a b l : list A) : Merge a b l -> Merge (p ++ a) b (p ++ l).
Proof. intros H. induction p as [|x p IH]; [exact H|]. cbn. now constructor. Qed.

Lemma Merge_app_r {A} (p a b l : list A) : Merge a b l -> Merge a (p ++ b) (p ++ l).
Proof. intros H. now apply Merge_sym, Merge_app_l, Merge_sym. Qed.

Lemma Merge_nil_l {A} (l : list A) : Merge [] l l.
Proof. induction l; constructor; assumption. Qed.

Lemma Merge_nil_r {A} (l : list A) : Merge l [] l.
Proof. apply Merge_sym, Merge_nil_l. Qed.

Lemma Merge_inv_nil_r {A} (a l : list A) : Merge a [] l -> l = a.
Proof.
  intros H. remember [] as b eqn:Eb. induction H; try discriminate; [reflexivity|].
  f_equal. now apply IHMerge.
Qed.

Lemma Merge_inv_nil_l {A} (b l : list A) : Merge [] b l -> l = b.
Proof. intros H. now apply Merge_inv_nil_r, Merge_sym. Qed.

Lemma Merge_length {A} (a b l : list A) : Merge a b l -> length l = (length a + length b)%nat.
Proof. induction 1; cbn; lia. Qed.

Lemma run_cons s o r :
  run s (o :: r) = (fst (run (fst (step s o)) r), snd (step s o) ++ snd (run (fst (step s o)) r)).
Proof. cbn [run]. now destruct (step s o), (run _ r). Qed.

Lemma OUT_cons c s o r :
  OUT c s (o :: r) = reads_out c (snd (step s o)) ++ OUT c (fst (step s o)) r.
Proof. unfold OUT, events, final, reads_out. rewrite run_cons. cbn [fst snd]. now rewrite flat_map_app, app_assoc. Qed.

Lemma ERR_cons c s o r :
  ERR c s (o :: r) = reads_err c (snd (step s o)) ++ ERR c (fst (step s o)) r.
Proof. unfold ERR, events, final, reads_err. rewrite run_cons. cbn [fst snd]. now rewrite flat_map_app, app_assoc. Qed.

Lemma final_cons c s o r : final s (o :: r) c = final (fst (step s o)) r c.
Proof. unfold final. now rewrite run_cons. Qed.

Definition data1 (m : msg) : list Z := match m with Data s => s | _ => [] end.
Definition ext1 (m : msg) : list Z :=
  match m with ExtData code s => if code =? 1 then s else [] | _ => [] end.
Definition stat1 (m : msg) : list Z := match m with ExitStatus n => [n] | _ => [] end.

Lemma data_of_cons c cid m l : data_of c ((cid, m) :: l) = (if cid =? c then data1 m else []) ++ data_of c l.
Proof. unfold data_of. cbn. now destruct m, (cid =? c). Qed.
Lemma ext_of_cons c cid m l : ext_of c ((cid, m) :: l) = (if cid =? c then ext1 m else []) ++ ext_of c l.
Proof. unfold ext_of. cbn. now destruct m, (cid =? c). Qed.
Lemma statuses_cons c cid m l : statuses c ((cid, m) :: l) = (if cid =? c then stat1 m else []) ++ statuses c l.
Proof. unfold statuses. cbn. now destruct m, (cid =? c). Qed.

Definition contrib (f : msg -> list Z) (c : Z) (k : ctl) (o : op) : list Z :=
  match o with
  | Msg cid m => if snd (dispatch k cid m) && (cid =? c) then f m else []
  | _ => []
  end.

Lemma step_ctl k ch o :
  fst (fst (step (k, ch) o)) = match o with Msg cid m => fst (dispatch k cid m) | _ => k end.
Proof.
  destruct o as [cid m|c n|c n|c b|c|c]; cbn; try reflexivity.
  - now destruct (dispatch k cid m).
  - now destruct (recv_out (ch c) n).
  - now destruct (recv_err (ch c) n).
  - now destruct (set_combine (ch c) b).
Qed.

Lemma spec_cons (P : Z -> list (Z * msg) -> list Z) (f : msg -> list Z) :
  (forall c cid m l, P c ((cid, m) :: l) = (if cid =? c then f m else []) ++ P c l) ->
  forall c k ch o r,
    P c (delivered k (msgs_of (o :: r))) =
    contrib f c k o ++ P c (delivered (fst (fst (step (k, ch) o))) (msgs_of r)).
Proof.
  intros HP c k ch o r. rewrite step_ctl.
  destruct o as [cid m|c0 n|c0 n|c0 b|c0|c0]; cbn [msgs_of delivered contrib]; try reflexivity.
  destruct (dispatch k cid m) as [k' [|]]; [apply HP|reflexivity].
Qed.

(* [cstep c k x o x' ro re]: step [o] takes channel c from [x] to [x'], and the user reads [ro]
   from its stdout and [re] from its stderr in that step. *)
Inductive cstep (c : Z) (k : ctl) (x : chan) : op -> chan -> list Z -> list Z -> Prop :=
  | cs_other o : (forall f, contrib f c k o = []) -> cstep c k x o x [] []
  | cs_msg m : (forall f, contrib f c k (Msg c m) = f m) -> cstep c k x (Msg c m) (handle x m) [] []
  | cs_recv n :
      cstep c k x (Recv c n) (fst (recv_out x n))
            (match snd (recv_out x n) with Some a => a | None => [] end) []
  | cs_recverr n :
      cstep c k x (RecvErr c n) (fst (recv_err x n)) []
            (match snd (recv_err x n) with Some a => a | None => [] end)
  | cs_comb b : cstep c k x (SetCombine c b) (fst (set_combine x b)) [] []
  | cs_close :
      cstep c k x (LocalClose c)
            (mkChan (c_out x) (c_err x) (c_comb x) (c_exit x) true true true) [] [].

Lemma step_cstep c k ch o :
  cstep c k (ch c) o (snd (fst (step (k, ch) o)) c)
        (reads_out c (snd (step (k, ch) o))) (reads_err c (snd (step (k, ch) o))).
Proof.
  assert (other : forall o, (forall f, contrib f c k o = []) -> cstep c k (ch c) o (ch c) [] [])
    by apply cs_other.
  destruct o as [cid m|c0 n|c0 n|c0 b|c0|c0]; cbn [step].
  - destruct (dispatch k cid m) as [k' d] eqn:D. cbn [fst snd reads_out reads_err flat_map]. unfold upd.
    destruct d; [destruct (Z.eqb_spec c cid) as [<-|N]|].
    + apply cs_msg. intros f. cbn. now rewrite D, Z.eqb_refl.
    + apply other. intros f. cbn. rewrite D. cbn. now destruct (Z.eqb_spec cid c); [destruct N|].
    + apply other. intros f. cbn. now rewrite D.
  - pose proof (cs_recv c k (ch c) n) as K. destruct (recv_out (ch c0) n) as [x r] eqn:R.
    cbn [fst snd]. unfold upd. destruct (Z.eqb_spec c c0) as [<-|N].
    + rewrite R in K. destruct r; cbn; rewrite ?Z.eqb_refl, ?app_nil_r; exact K.
    + destruct r; cbn; [destruct (Z.eqb_spec c0 c); [now destruct N|]|]; now apply other.
  - pose proof (cs_recverr c k (ch c) n) as K. destruct (recv_err (ch c0) n) as [x r] eqn:R.
    cbn [fst snd]. unfold upd. destruct (Z.eqb_spec c c0) as [<-|N].
    + rewrite R in K. destruct r; cbn; rewrite ?Z.eqb_refl, ?app_nil_r; exact K.
    + destruct r; cbn; [destruct (Z.eqb_spec c0 c); [now destruct N|]|]; now apply other.
  - pose proof (cs_comb c k (ch c) b) as K. destruct (set_combine (ch c0) b) as [x old] eqn:R.
    cbn [fst snd]. unfold upd. destruct (Z.eqb_spec c c0) as [<-|N]; [now rewrite R in K|now apply other].
  - now apply other.
  - cbn [fst snd]. unfold upd. destruct (Z.eqb_spec c c0) as [<-|N]; [apply cs_close|now apply other].
Qed.

Definition view (ch : chan) : list Z * list Z * bool := (c_out ch, c_err ch, c_comb ch).

(* [lstep v v' ro re dC eC]: a step takes the view from [v] to [v'] while the user reads [ro] from
   stdout and [re] from stderr, and contributes [dC] / [eC] to the channel's DATA / EXTENDED_DATA
   projections. *)
Inductive lstep : list Z * list Z * bool -> list Z * list Z * bool ->
                  list Z -> list Z -> list Z -> list Z -> Prop :=
  | L_same o e b b' : (b' = true -> b = true) -> lstep (o, e, b) (o, e, b') [] [] [] []
  | L_data o e b s : lstep (o, e, b) (o ++ s, e, b) [] [] s []
  | L_ext_err o e s : lstep (o, e, false) (o, e ++ s, false) [] [] [] s
  | L_ext_out o e s : lstep (o, e, true) (o ++ s, e, true) [] [] [] s
  | L_recv ro o e b : lstep (ro ++ o, e, b) (o, e, b) ro [] [] []
  | L_recverr re o e b : lstep (o, re ++ e, b) (o, e, b) [] re [] []
  | L_comb_on o e : lstep (o, e, false) (o ++ e, [], true) [] [] [] [].

Lemma lstep_refl v : lstep v v [] [] [] [].
Proof. destruct v as [[o e] b]. now apply L_same. Qed.

Lemma pipe_read_split p n : fst (pipe_read p n) ++ snd (pipe_read p n) = p.
Proof. unfold pipe_read. cbn [fst snd]. apply firstn_skipn. Qed.

Lemma cstep_lstep c k x o x' ro re :
  cstep c k x o x' ro re -> lstep (view x) (view x') ro re (contrib data1 c k o) (contrib ext1 c k o).
Proof.
  destruct 1 as [o H|m H|n|n|b|]; rewrite ?H; cbn [contrib].
  - apply lstep_refl.
  - destruct m as [s|code s|n| | | | | ]; cbn [handle data1 ext1]; try (now apply L_same).
    + apply L_data.
    + destruct (code =? 1); [|apply lstep_refl].
      unfold view. destruct (c_comb x); [apply L_ext_out|apply L_ext_err].
  - unfold recv_out. destruct (c_out x) as [|y p] eqn:Eo.
    + destruct (c_pclosed x); apply lstep_refl.
    + pose proof (pipe_read_split (y :: p) n) as Hs. destruct (pipe_read (y :: p) n) as [a b0].
      unfold view. cbn [fst snd c_out c_err c_comb] in *. rewrite Eo, <- Hs. apply L_recv.
  - unfold recv_err. destruct (c_err x) as [|y p] eqn:Ee.
    + destruct (c_pclosed x); apply lstep_refl.
    + pose proof (pipe_read_split (y :: p) n) as Hs. destruct (pipe_read (y :: p) n) as [a b0].
      unfold view. cbn [fst snd c_out c_err c_comb] in *. rewrite Ee, <- Hs. apply L_recverr.
  - unfold set_combine, view. destruct b, (c_comb x); cbn; try (now apply L_same). apply L_comb_on.
  - now apply L_same.
Qed.

Lemma step_lstep c k ch o :
  lstep (view (ch c)) (view (snd (fst (step (k, ch) o)) c))
        (reads_out c (snd (step (k, ch) o))) (reads_err c (snd (step (k, ch) o)))
        (contrib data1 c k o) (contrib ext1 c k o).
Proof. apply cstep_lstep, step_cstep. Qed.

(* combining on means the stderr buffer is empty *)
Definition comb_inv (v : list Z * list Z * bool) : Prop := snd v = true -> snd (fst v) = [].

Lemma lstep_inv v v1 ro re dC eC : lstep v v1 ro re dC eC -> comb_inv v -> comb_inv v1.
Proof.
  unfold comb_inv. destruct 1; cbn; auto; intros I H.
  - discriminate.
  - now destruct (app_eq_nil _ _ (I H)).
Qed.

Lemma glue_merge v v1 ro re dC eC OUT1 ERR1 D1 E1 :
  lstep v v1 ro re dC eC -> comb_inv v ->
  (exists zo eo, OUT1 = fst (fst v1) ++ zo /\ Merge D1 eo zo /\ Merge eo ERR1 (snd (fst v1) ++ E1)) ->
  exists zo eo, ro ++ OUT1 = fst (fst v) ++ zo /\ Merge (dC ++ D1) eo zo /\
                Merge eo (re ++ ERR1) (snd (fst v) ++ eC ++ E1).
Proof.
  intros L I (zo & eo & -> & H2 & H3). unfold comb_inv in I.
  destruct L as [o e b b' Hb|o e b s|o e s|o e s|ro o e b|re o e b|o e]; cbn in *.
  - now exists zo, eo.
  - exists (s ++ zo), eo. rewrite <- app_assoc. auto using Merge_app_l.
  - exists zo, eo. rewrite <- app_assoc in H3. auto.
  - (* combining is on, so nothing is buffered on stderr: the new bytes are the next of both *)
    rewrite (I eq_refl) in *. cbn [app] in *. exists (s ++ zo), (s ++ eo). rewrite <- app_assoc.
    auto using Merge_app_l, Merge_app_r.
  - exists zo, eo. rewrite <- app_assoc. auto.
  - exists zo, eo. rewrite <- app_assoc. auto using Merge_app_r.
  - (* the switch moves the whole stderr buffer to the end of stdout *)
    exists (e ++ zo), (e ++ eo). rewrite <- app_assoc. auto using Merge_app_l, Merge_app_r.
Qed.

Lemma merge_main : forall ops k ch c,
  comb_inv (view (ch c)) ->
  exists zo eo,
    OUT c (k, ch) ops = c_out (ch c) ++ zo /\
    Merge (data_of c (delivered k (msgs_of ops))) eo zo /\
    Merge eo (ERR c (k, ch) ops) (c_err (ch c) ++ ext_of c (delivered k (msgs_of ops))).
Proof.
  induction ops as [|o r IH]; intros k ch c I.
  - exists [], []. unfold OUT, ERR, events, final. cbn. rewrite !app_nil_r. repeat split.
    + constructor.
    + apply Merge_nil_l.
  - rewrite OUT_cons, ERR_cons.
    rewrite (spec_cons data_of data1 data_of_cons c k ch o r).
    rewrite (spec_cons ext_of ext1 ext_of_cons c k ch o r).
    pose proof (step_lstep c k ch o) as L.
    destruct (step (k, ch) o) as [[k1 ch1] e1]. cbn [fst snd] in *.
    apply (glue_merge _ _ _ _ _ _ _ _ _ _ L I), IH, (lstep_inv _ _ _ _ _ _ L I).
Qed.

Lemma inv_main : forall ops k ch c, comb_inv (view (ch c)) -> comb_inv (view (final (k, ch) ops c)).
Proof.
  induction ops as [|o r IH]; intros k ch c I; [exact I|].
  rewrite final_cons. pose proof (step_lstep c k ch o) as L.
  destruct (step (k, ch) o) as [[k1 ch1] e1]. cbn [fst snd] in *.
  apply IH, (lstep_inv _ _ _ _ _ _ L I).
Qed.

Lemma glue_plain v v1 ro re dC eC OUT1 ERR1 D1 E1 :
  lstep v v1 ro re dC eC -> snd v1 = false ->
  OUT1 = fst (fst v1) ++ D1 -> ERR1 = snd (fst v1) ++ E1 ->
  ro ++ OUT1 = fst (fst v) ++ dC ++ D1 /\ re ++ ERR1 = snd (fst v) ++ eC ++ E1.
Proof.
  intros L C1 -> ->. destruct L; cbn in *; try discriminate; now rewrite <- ?app_assoc.
Qed.

Lemma cstep_comb_false c k x o x' ro re :
  cstep c k x o x' ro re -> c_comb x = false -> (forall b, o = SetCombine c b -> b = false) ->
  c_comb x' = false.
Proof.
  destruct 1 as [o H|m H|n|n|b|]; intros C N; auto.
  - destruct m as [s|code s|n| | | | | ]; cbn; auto. destruct (code =? 1); [rewrite C|]; auto.
  - unfold recv_out. destruct (c_out x); [exact C|]. now destruct (pipe_read _ n).
  - unfold recv_err. destruct (c_err x); [exact C|]. now destruct (pipe_read _ n).
  - now rewrite (N b eq_refl).
Qed.

Lemma plain_main : forall ops k ch c,
  c_comb (ch c) = false -> never_combined c ops ->
  OUT c (k, ch) ops = c_out (ch c) ++ data_of c (delivered k (msgs_of ops)) /\
  ERR c (k, ch) ops = c_err (ch c) ++ ext_of c (delivered k (msgs_of ops)).
Proof.
  induction ops as [|o r IH]; intros k ch c C N.
  - unfold OUT, ERR, events, final. cbn. rewrite !app_nil_r. auto.
  - rewrite OUT_cons, ERR_cons.
    rewrite (spec_cons data_of data1 data_of_cons c k ch o r).
    rewrite (spec_cons ext_of ext1 ext_of_cons c k ch o r).
    pose proof (step_lstep c k ch o) as L.
    assert (C1 : c_comb (snd (fst (step (k, ch) o)) c) = false).
    { apply (cstep_comb_false _ _ _ _ _ _ _ (step_cstep c k ch o) C). intros b ->. now apply (N c b); [left|]. }
    destruct (step (k, ch) o) as [[k1 ch1] e1]. cbn [fst snd] in *.
    destruct (IH k1 ch1 c C1 (fun c' b Hin => N c' b (or_intror Hin))) as [H1 H2].
    exact (glue_plain _ _ _ _ _ _ _ _ _ _ L C1 H1 H2).
Qed.

Lemma reads_err_app c a b : reads_err c (a ++ b) = reads_err c a ++ reads_err c b.
Proof. apply flat_map_app. Qed.

Lemma reads_err_none : forall ops s c, no_recv_err c ops -> reads_err c (events s ops) = [].
Proof.
  induction ops as [|o r IH]; intros [k ch] c N; [reflexivity|].
  unfold events in *. rewrite run_cons. cbn [snd]. rewrite reads_err_app.
  rewrite IH by (intros c' n Hin; apply (N c' n); right; exact Hin). rewrite app_nil_r.
  destruct (step_cstep c k ch o) as [| | |n| |]; auto. destruct (N c n); [now left|reflexivity].
Qed.

Lemma delivered_all k l : well_addressed k l -> delivered k l = l.
Proof.
  intros [Ha Hl]. induction l as [|[cid m] r IH]; [reflexivity|].
  cbn [delivered]. destruct (Hl cid m (or_introl eq_refl)) as [Hreg Hm].
  unfold dispatch. rewrite Ha, Hreg. cbn [negb].
  assert (Hc : is_close m = false) by (destruct m; try reflexivity; congruence).
  rewrite Hc. f_equal. apply IH. intros cid' m' Hin. apply Hl. right. exact Hin.
Qed.

Lemma delivered_inactive k l : k_active k = false -> delivered k l = [].
Proof.
  revert k. induction l as [|[cid m] r IH]; intros k Hk; [reflexivity|].
  cbn [delivered]. unfold dispatch. rewrite Hk. cbn [negb]. apply IH. exact Hk.
Qed.

Lemma memz_removez x y l : memz x (removez y l) = true -> memz x l = true.
Proof.
  unfold memz, removez. rewrite !existsb_exists. intros (z & Hin & Hz).
  apply filter_In in Hin. exists z. tauto.
Qed.

(* registrations only shrink *)
Lemma delivered_registered : forall l k cid m,
  In (cid, m) (delivered k l) -> memz cid (k_reg k) = true.
Proof.
  induction l as [|[cid0 m0] r IH]; intros k cid m Hin; [destruct Hin|].
  cbn [delivered] in Hin. unfold dispatch in Hin.
  destruct (k_active k) eqn:Ha; cbn [negb] in Hin.
  - destruct (memz cid0 (k_reg k)) eqn:Hreg.
    + destruct Hin as [Heq|Hin].
      * injection Heq as <- <-. exact Hreg.
      * apply IH in Hin.
        destruct (is_close m0); cbn in Hin; [eapply memz_removez; eauto|exact Hin].
    + destruct (memz cid0 (k_seen k)).
      * apply IH in Hin. exact Hin.
      * rewrite delivered_inactive in Hin by reflexivity. destruct Hin.
  - rewrite delivered_inactive in Hin by exact Ha. destruct Hin.
Qed.

Lemma projections_unregistered c k l :
  memz c (k_reg k) = false ->
  data_of c (delivered k l) = [] /\ ext_of c (delivered k l) = [] /\ statuses c (delivered k l) = [].
Proof.
  intros Hreg.
  assert (H : forall m, ~ In (c, m) (delivered k l)).
  { intros m Hin. apply delivered_registered in Hin. congruence. }
  revert H. generalize (delivered k l) as d. induction d as [|[cid m] d IH]; intros H; [auto|].
  rewrite data_of_cons, ext_of_cons, statuses_cons.
  destruct IH as (-> & -> & ->); [intros m' Hin; apply (H m'); right; exact Hin|].
  destruct (Z.eqb_spec cid c) as [->|_]; [|auto]. destruct (H m). now left.
Qed.

Lemma cstep_exit c k x o x' ro re :
  cstep c k x o x' ro re ->
  c_exit x' = last (contrib stat1 c k o) (c_exit x) /\
  (c_status x = true \/ contrib stat1 c k o <> [] -> c_status x' = true).
Proof.
  assert (same : forall y, c_exit y = c_exit x -> (c_status x = true -> c_status y = true) ->
                           c_exit y = last [] (c_exit x) /\ (c_status x = true \/ @nil Z <> [] -> c_status y = true)).
  { intros y E S. split; [exact E|]. now intros [A|A]; [apply S|]. }
  destruct 1 as [o H|m H|n|n|b|]; rewrite ?H; cbn [contrib]; try (apply same; auto; fail).
  - destruct m as [s|code s|n| | | | | ]; try (apply same; auto; fail); cbn [handle stat1].
    + destruct (code =? 1); [destruct (c_comb x)|]; now apply same.
    + now split.
  - apply same; unfold recv_out; destruct (c_out x); auto; now destruct (pipe_read _ n).
  - apply same; unfold recv_err; destruct (c_err x); auto; now destruct (pipe_read _ n).
  - apply same; unfold set_combine; now destruct (b && negb (c_comb x)).
Qed.

Lemma exit_main : forall ops k ch c,
  c_exit (final (k, ch) ops c) = last (statuses c (delivered k (msgs_of ops))) (c_exit (ch c)) /\
  (c_status (ch c) = true \/ statuses c (delivered k (msgs_of ops)) <> [] ->
   c_status (final (k, ch) ops c) = true).
Proof.
  induction ops as [|o r IH]; intros k ch c.
  - unfold final. cbn. split; auto. intros [H|H]; auto; congruence.
  - rewrite final_cons.
    rewrite (spec_cons statuses stat1 statuses_cons c k ch o r).
    pose proof (cstep_exit _ _ _ _ _ _ _ (step_cstep c k ch o)) as [X1 X2].
    destruct (step (k, ch) o) as [[k1 ch1] e1]. cbn [fst snd] in *.
    destruct (IH k1 ch1 c) as [I1 I2]. split.
    + rewrite I1, X1, last_app_default. reflexivity.
    + intros H. apply I2.
      destruct (contrib stat1 c k o) eqn:Ec.
      * cbn in H. destruct H as [H|H]; auto.
      * left. apply X2. right. discriminate.
Qed.

Lemma exit_status k ch ops c :
  statuses c (delivered k (msgs_of ops)) <> [] ->
  exit_ready (final (k, ch) ops c) = true /\
  c_exit (final (k, ch) ops c) = last (statuses c (delivered k (msgs_of ops))) (c_exit (ch c)).
Proof.
  intros H. destruct (exit_main ops k ch c) as [E1 E2]. split; [|exact E1].
  unfold exit_ready. rewrite E2 by (right; exact H). apply orb_true_r.
Qed.

Lemma exit_status_one k ch ops c n :
  statuses c (delivered k (msgs_of ops)) = [n] ->
  exit_ready (final (k, ch) ops c) = true /\ c_exit (final (k, ch) ops c) = n.
Proof.
  intros H. destruct (exit_status k ch ops c) as [E1 E2]; [now rewrite H|].
  split; [exact E1|]. now rewrite E2, H.
Qed.

Lemma sendall_concat : forall grants s,
  concat (fst (sendall grants s)) ++ snd (sendall grants s) = s.
Proof.
  induction grants as [|g gs IH]; intros s.
  - destruct s; reflexivity.
  - destruct s as [|x s]; [reflexivity|]. destruct g as [|g]; [reflexivity|].
    cbn [sendall]. specialize (IH (skipn (S g) (x :: s))).
    destruct (sendall gs (skipn (S g) (x :: s))) as [l rest]. cbn [fst snd concat] in *.
    rewrite <- app_assoc, IH. apply firstn_skipn.
Qed.

Lemma data_of_own c l : data_of c (map (fun p => (c, Data p)) l) = concat l.
Proof.
  induction l as [|p l IH]; [reflexivity|]. cbn [map]. rewrite data_of_cons, IH.
  unfold data1. rewrite Z.eqb_refl. reflexivity.
Qed.

(* in every enabled merge the reader is past its wait only after the store *)
Lemma exit_concurrent old n l s' :
  Merge (prog_handler n) prog_reader l -> xrun (xinit old) l = Some s' -> x_result s' = Some n.
Proof.
  unfold prog_handler, prog_reader. intros M R.
  repeat match goal with H : Merge _ _ _ |- _ => inversion H; clear H; subst end;
    cbn in R; try discriminate; now injection R as <-.
Qed.

Lemma exit_handler_atomic e st r n : xrun (mkX e st r) (prog_handler n) = Some (mkX n true r).
Proof. reflexivity. Qed.

Lemma exit_reader_blocks_until_set old : xrun (xinit old) prog_reader = None.
Proof. reflexivity. Qed.

Lemma send_size_bounds len w p :
  let '(size, w') := send_size len w p in size <= len /\ size <= w /\ w' = w - size.
Proof.
  unfold send_size. destruct (w <? len) eqn:E1; destruct (p - 64 <? _) eqn:E2; lia.
Qed.

Lemma sendall_win_ok : forall fuel w p s,
  let '(l, rest, wf) := sendall_win fuel w p s in
  concat l ++ rest = s /\ w - wf = Z.of_nat (length (concat l)).
Proof.
  induction fuel as [|f IH]; intros w p s; cbn [sendall_win].
  - cbn. split; [reflexivity|lia].
  - destruct s as [|x s]; [cbn; split; [reflexivity|lia]|].
    destruct (w <=? 0) eqn:Ew; [cbn; split; [reflexivity|lia]|].
    pose proof (send_size_bounds (Z.of_nat (length (x :: s))) w p) as B.
    destruct (send_size (Z.of_nat (length (x :: s))) w p) as [size w'].
    destruct B as (B1 & B2 & B3).
    destruct (size <=? 0) eqn:Es; [cbn; split; [reflexivity|lia]|].
    specialize (IH w' p (skipn (Z.to_nat size) (x :: s))).
    destruct (sendall_win f w' p (skipn (Z.to_nat size) (x :: s))) as [[l rest] wf].
    destruct IH as [I1 I2]. cbn [concat]. split.
    + rewrite <- app_assoc, I1. apply firstn_skipn.
    + rewrite app_length, firstn_length, Nat2Z.inj_add, <- I2.
      rewrite Nat.min_l by lia. lia.
Qed.

(* every modelled message kind has the number common.py gives it, and Transport._channel_handler_table
   routes that number to the handler [handle] mirrors (Gen/C21_gen.v, regenerated on every run) *)
Lemma gen_dispatch : forall m : msg, In (msg_ptype m, handler_code m) gen_handler_table.
Proof. intros m. destruct m; vm_compute; tauto. Qed.
