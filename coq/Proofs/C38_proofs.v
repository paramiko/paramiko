(* The except ladder stores only allowed classes ([ladder_saves]).  For the parser two inductions
   run through run_getters, repeat_body, run_item and run_items: a state that has fuel keeps it under
   guarded items ([*_fuelled]), and the number of get_* calls grows by at most the work bound
   ([*_gets]).  The generated tables are checked by evaluation and used through [*_spec] lemmas. *)
From Coq Require Import ZArith List Bool Lia.
From PV Require Import Bytes ListFacts C39 C38 C38_gen.
Import ListNotations.
Open Scope Z_scope.

(* the first three clauses keep what they caught, the generic one stores an SSHException *)
Lemma ladder_saves e :
  terminates e = true -> surface ladder e = Saved (if allowed e then e else SSHExc).
Proof.
  intros He. unfold surface, ladder, allowed. rewrite He. cbn [ladder_pick catches].
  destruct (is_ssh e), (is_eof e), (is_sock e); reflexivity.
Qed.

Definition surfaces_ok (s : option surfaced) : Prop :=
  api_ok (api_start s) = true /\ api_ok (api_auth s) = true /\
  match api_get_exception s with Some e => allowed e = true | None => True end.

Lemma saved_allowed_ok e : allowed e = true -> surfaces_ok (Some (Saved e)).
Proof.
  intros Ha. unfold surfaces_ok. cbn [api_start api_auth api_ok api_get_exception].
  destruct (is_eof e); auto.
Qed.

Lemma any_internal_error :
  forall e, terminates e = true -> surfaces_ok (Some (surface ladder e)).
Proof.
  intros e He. rewrite ladder_saves by exact He. apply saved_allowed_ok.
  destruct (allowed e) eqn:Ha; [exact Ha | reflexivity].
Qed.

Definition fuelled (st : pstate) : Prop := p_exn st <> Some OutOfFuel.

Lemma step_exn : forall g buf pos, snd (step g buf pos) = None \/ snd (step g buf pos) = Some UnicodeErr.
Proof.
  intros g buf pos. destruct g; cbn [step snd]; auto.
  all: destruct (get_string buf pos) as [s p]; cbn [snd]; destruct (utf8_valid s); auto.
Qed.

Lemma run_getters_fuelled : forall gs buf st, fuelled st -> fuelled (run_getters gs buf st).
Proof.
  induction gs as [|g r IH]; intros buf st Hst.
  - cbn [run_getters]. destruct (p_exn st); exact Hst.
  - cbn [run_getters]. destruct (p_exn st) eqn:E; [exact Hst|].
    destruct (step g buf (p_pos st)) as [p e] eqn:Es. apply IH.
    unfold fuelled. cbn [p_exn]. pose proof (step_exn g buf (p_pos st)) as H. rewrite Es in H.
    cbn [snd] in H. destruct H as [-> | ->]; discriminate.
Qed.

Lemma repeat_body_fuelled : forall n body buf st, fuelled st -> fuelled (repeat_body n body buf st).
Proof.
  induction n as [|n IH]; intros body buf st Hst; cbn [repeat_body]; [exact Hst|].
  destruct (p_exn st) eqn:E; [exact Hst|]. apply IH. apply run_getters_fuelled. exact Hst.
Qed.

Lemma run_item_fuelled : forall it buf st,
  item_guarded it = true -> fuelled st -> fuelled (run_item it buf st).
Proof.
  intros it buf st Hg Hst. unfold run_item. destruct (p_exn st) eqn:E; [exact Hst|].
  destruct it as [g | body guard].
  - apply run_getters_fuelled. exact Hst.
  - destruct (get_int buf (p_pos st)) as [n p]. destruct guard as [d|]; [|discriminate Hg].
    destruct (n >? _).
    + unfold fuelled. cbn [p_exn]. discriminate.
    + apply repeat_body_fuelled. unfold fuelled. cbn [p_exn]. discriminate.
Qed.

Lemma run_items_fuelled : forall its buf st,
  forallb item_guarded its = true -> fuelled st -> fuelled (run_items its buf st).
Proof.
  induction its as [|it r IH]; intros buf st Hg Hst; cbn [run_items]; [exact Hst|].
  cbn [forallb] in Hg. apply andb_true_iff in Hg as [H1 H2]. apply IH; [exact H2|].
  apply run_item_fuelled; assumption.
Qed.

Lemma guarded_no_spin : forall h buf, handler_guarded h = true -> p_exn (parse h buf) <> Some OutOfFuel.
Proof.
  intros h buf Hg. unfold parse. apply run_items_fuelled; [exact Hg|]. unfold fuelled. cbn [p_exn].
  discriminate.
Qed.

Lemma all_guarded : forallb handler_guarded handlers = true.
Proof. vm_compute. reflexivity. Qed.

Lemma no_spin : forall h buf, In h handlers -> p_exn (parse h buf) <> Some OutOfFuel.
Proof.
  intros h buf Hin. apply guarded_no_spin.
  pose proof all_guarded as H. rewrite forallb_forall in H. apply H. exact Hin.
Qed.

Lemma run_getters_gets : forall gs buf st,
  (p_gets (run_getters gs buf st) <= p_gets st + length gs)%nat.
Proof.
  induction gs as [|g r IH]; intros buf st.
  - cbn [run_getters]. destruct (p_exn st); cbn [length]; lia.
  - cbn [run_getters]. destruct (p_exn st); [cbn [length]; lia|].
    destruct (step g buf (p_pos st)) as [p e].
    specialize (IH buf (mkP (S (p_gets st)) p e)). cbn [p_gets length] in *. lia.
Qed.

Lemma repeat_body_gets : forall n body buf st,
  (p_gets (repeat_body n body buf st) <= p_gets st + n * length body)%nat.
Proof.
  induction n as [|n IH]; intros body buf st; cbn [repeat_body]; [lia|].
  destruct (p_exn st); [lia|].
  specialize (IH body buf (run_getters body buf st)).
  pose proof (run_getters_gets body buf st). lia.
Qed.

Lemma run_item_gets : forall it buf st,
  (p_gets (run_item it buf st) <= p_gets st + item_work (length buf) it)%nat.
Proof.
  intros it buf st. unfold run_item. destruct (p_exn st); [lia|].
  destruct it as [g | body guard]; cbn [item_work].
  - pose proof (run_getters_gets [g] buf st). cbn [length] in *. lia.
  - destruct (get_int buf (p_pos st)) as [n p].
    set (k := Z.to_nat (Z.min n (Z.of_nat (length buf)))).
    assert (Hk : (k <= length buf)%nat) by (unfold k; lia).
    assert (Hm : (k * length body <= length buf * length body)%nat) by (apply Nat.mul_le_mono_r; exact Hk).
    pose proof (repeat_body_gets k body buf (mkP (S (p_gets st)) p None)) as H. cbn [p_gets] in H.
    destruct guard as [d|]; destruct (n >? _); cbn [p_gets]; lia.
Qed.

Lemma run_items_gets : forall its buf st,
  (p_gets (run_items its buf st) <= p_gets st + items_work (length buf) its)%nat.
Proof.
  induction its as [|it r IH]; intros buf st; cbn [run_items items_work]; [lia|].
  specialize (IH buf (run_item it buf st)). pose proof (run_item_gets it buf st). lia.
Qed.

(* the ladder as it was before the repair (generic clause stores the caught object) *)
Definition ladder_v0 : list (cclass * bool) := [(CSSH, false); (CEOF, false); (CSocket, false); (CAny, false)].

Lemma ascii_valid : forall s, forallb (fun b => b <? 128) s = true -> utf8_valid s = true.
Proof.
  induction s as [|b r IH]; intros H; [reflexivity|].
  cbn [forallb] in H. apply andb_true_iff in H as [Hb Hr]. cbn [utf8_valid]. rewrite Hb. apply IH. exact Hr.
Qed.

Lemma guard_sound_spec g :
  guard_sound g = true -> forall active kex_done, g active kex_done = negb (active && kex_done).
Proof.
  unfold guard_sound. intros H. repeat apply andb_true_iff in H as [H ?].
  intros [|] [|]; cbn [andb negb]; [now apply negb_true_iff | assumption ..].
Qed.

Lemma all_guards_sound : forallb (fun g => guard_sound (snd g)) session_guards = true.
Proof. vm_compute. reflexivity. Qed.

Lemma session_guard_spec g active kex_done :
  In g session_guards ->
  api_guarded (snd g) active kex_done = if active && kex_done then Returns else Raises SSHExc.
Proof.
  intros Hin. unfold api_guarded.
  rewrite (guard_sound_spec _ (proj1 (forallb_forall _ _) all_guards_sound g Hin)).
  destruct (active && kex_done); reflexivity.
Qed.

Lemma mem_name_in : forall a l, In a l -> mem_name a l = true.
Proof.
  intros a l. apply (existsb_eqb_In zlist_eqb_eq).
Qed.

Lemma clears_disjoint_spec clears derefs a :
  clears_disjoint clears derefs = true -> In a derefs -> mem_name a clears = false.
Proof.
  intros H Hd. destruct (mem_name a clears) eqn:E; [|reflexivity]. exfalso.
  apply (existsb_eqb_In zlist_eqb_eq) in E as Hb.
  unfold clears_disjoint in H. rewrite forallb_forall in H.
  specialize (H a Hb). rewrite (mem_name_in a derefs Hd) in H. discriminate H.
Qed.
