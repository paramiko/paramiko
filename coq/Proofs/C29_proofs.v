(* putfo is followed down its call chain once (the *_spec lemmas), carrying the client invariant wf of
   Proofs/C30_proofs.v and, for a server that accepts every write, the invariant good: _realpos is
   the end of the remote file, so every write appends.  putfo_ret_inv reads both property theorems
   off the end. *)
From Coq Require Import ZArith List Bool Lia.
From PV Require Import Bytes ListFacts C30_gen C30 C30_proofs C29.
Import ListNotations.
Open Scope Z_scope.

Lemma zlen_app a b : zlen (a ++ b) = zlen a + zlen b.
Proof. unfold zlen. rewrite app_length. lia. Qed.

Lemma apply_write_append file d : apply_write file (zlen file) d = file ++ d.
Proof.
  unfold apply_write, zlen. rewrite Nat2Z.id, Nat.sub_diag. cbn [repeat].
  rewrite app_nil_r, firstn_all, skipn_all2 by lia. rewrite app_nil_r. reflexivity.
Qed.

Lemma write_op_closed ready rp f c r f' c' :
  write_op true ready rp f c = (r, f', c') -> f_closed f' = f_closed f.
Proof.
  unfold write_op. destruct (async_request c rp) as [c1 n].
  destruct (_ || _); [destruct (drain _ _ _) as [[? ?] ?]|]; intros [= _ <- _]; reflexivity.
Qed.

Definition synced (s : pst) : Prop := p_pos s = zlen (p_file s).
Definition good (s : pst) : Prop := accepted (p_env s) /\ synced s /\ f_closed (p_f s) = false.

(* Each *_spec lemma says two things of a call that returned: whatever the server answered, request
   numbers are still fresh (wf); and from a good state the remote file has grown by exactly the
   bytes written. *)
Lemma fwrite1_spec mrs s data r n s1 :
  wf (p_c s) -> fwrite1 mrs s data = (r, n, s1) ->
  wf (p_c s1) /\
  (good s ->
   let chunk := firstn (Z.to_nat (Z.min (zlen data) mrs)) data in
   n = zlen chunk /\ p_file s1 = p_file s ++ chunk /\ p_pos s1 = p_pos s /\ p_wbuf s1 = p_wbuf s /\
   accepted (p_env s1) /\ f_closed (p_f s1) = false).
Proof.
  intros Hw H. unfold fwrite1 in H.
  destruct (next_env (p_env s)) as [[ready code] env'] eqn:En.
  destruct (write_op true ready (g_CMD_STATUS, code) (p_f s) (p_c s)) as [[r' f'] c'] eqn:Ew.
  inversion H; subst. cbn [p_c p_file p_pos p_wbuf p_env p_f].
  split; [exact (proj2 (write_ok _ _ _ _ _ _ _ Hw Ew))|].
  intros [Hacc [Hsync Hcl]].
  assert (code = g_SFTP_OK /\ accepted env') as [-> Hacc'].
  { unfold next_env in En. destruct (p_env s) as [|x rest]; inversion En; subst.
    - split; [reflexivity | constructor].
    - inversion Hacc as [|? ? Hx Hr]; subst. cbn in Hx. split; assumption. }
  apply write_op_closed in Ew.
  rewrite Z.eqb_refl, Hsync, apply_write_append. repeat split; auto. congruence.
Qed.

Lemma write_all_spec mrs fuel : forall s data s1,
  wf (p_c s) -> write_all mrs fuel s data = (ORet, s1) ->
  wf (p_c s1) /\ (good s -> p_file s1 = p_file s ++ data /\ p_wbuf s1 = p_wbuf s /\ good s1).
Proof.
  induction fuel as [|k IH]; intros s data s1 Hw H; destruct data as [|x data']; cbn [write_all] in H;
    try (injection H as <-; rewrite app_nil_r; auto; fail); try discriminate H.
  destruct (fwrite1 mrs s (x :: data')) as [[r n] s0] eqn:Ef.
  apply fwrite1_spec in Ef as [Hw0 Hacc]; [|exact Hw].
  destruct r; try discriminate H.
  apply IH in H as [Hw1 Hrest]; [|exact Hw0]. split; [exact Hw1|].
  intros Hg. destruct (Hacc Hg) as [Hn [Hf [Hp [Hb [Ha Hc]]]]]. cbn [p_file p_wbuf] in Hrest.
  destruct Hrest as [A [B C]].
  - repeat split; cbn [p_env p_pos p_file p_f]; auto.
    destruct Hg as [_ [Hs _]]. unfold synced in *. cbn [p_pos p_file]. rewrite Hp, Hs, Hf, Hn, zlen_app. reflexivity.
  - split; [|split; [congruence | exact C]].
    rewrite A, Hf, <- app_assoc. f_equal. rewrite Hn. unfold zlen. rewrite Nat2Z.id.
    apply firstn_skipn_len.
Qed.

Lemma flush_spec mrs s s1 :
  wf (p_c s) -> flush mrs s = (ORet, s1) ->
  wf (p_c s1) /\ (good s -> p_file s1 = p_file s ++ p_wbuf s /\ p_wbuf s1 = [] /\ good s1).
Proof.
  intros Hw H. unfold flush in H.
  destruct (write_all mrs (length (p_wbuf s)) s (p_wbuf s)) as [r s0] eqn:Ew.
  destruct r; try discriminate H. apply write_all_spec in Ew as [Hw0 Hacc]; [|exact Hw].
  injection H as <-. split; [exact Hw0|].
  intros Hg. destruct (Hacc Hg) as [A [B [C [D E]]]]. cbn. repeat split; auto.
Qed.

Lemma bwrite_spec mrs s data s1 :
  wf (p_c s) -> bwrite mrs s data = (ORet, s1) ->
  wf (p_c s1) /\ (good s -> p_file s1 = p_file s ++ data /\ p_wbuf s1 = p_wbuf s /\ good s1).
Proof.
  intros Hw H. unfold bwrite in H. destruct (f_closed (p_f s)); [discriminate H|].
  exact (write_all_spec _ _ _ _ _ Hw H).
Qed.

Lemma transfer_spec mrs chunks : forall s size sz s1,
  wf (p_c s) -> transfer mrs s chunks size = (ORet, sz, s1) ->
  wf (p_c s1) /\ sz = size + zlen (concat chunks) /\
  (good s -> p_file s1 = p_file s ++ concat chunks /\ p_wbuf s1 = p_wbuf s /\ good s1).
Proof.
  induction chunks as [|ch rest IH]; intros s size sz s1 Hw H; cbn [transfer concat] in *.
  - destruct (bwrite mrs s []) as [r s0] eqn:Eb. injection H as -> <- <-.
    apply bwrite_spec in Eb as [Hw0 Hacc]; [|exact Hw].
    split; [exact Hw0|]. split; [symmetry; apply Z.add_0_r | exact Hacc].
  - destruct (bwrite mrs s ch) as [r s0] eqn:Eb. destruct r; try discriminate H.
    apply bwrite_spec in Eb as [Hw0 Hacc]; [|exact Hw].
    apply IH in H as [Hw1 [Hsz Hrest]]; [|exact Hw0].
    split; [exact Hw1|]. split; [rewrite Hsz, zlen_app; lia|].
    intros Hg. destruct (Hacc Hg) as [A [B C]]. destruct (Hrest C) as [D [E F]].
    split; [|split; [congruence | exact F]]. rewrite D, A, <- app_assoc. reflexivity.
Qed.

Lemma pclose_spec mrs s rp s2 :
  wf (p_c s) -> pclose mrs s rp = (ORet, s2) ->
  wf (p_c s2) /\ (good s -> p_file s2 = p_file s ++ p_wbuf s).
Proof.
  intros Hw H. unfold pclose in H. destruct (f_closed (p_f s)) eqn:Hcl.
  - injection H as <-. split; [exact Hw|]. intros (_ & _ & Hc). congruence.
  - destruct (flush mrs s) as [r s1] eqn:Ef. destruct r; try discriminate H.
    apply flush_spec in Ef as [Hw1 Hacc]; [|exact Hw].
    destruct (request (p_c s1) rp) as [[[r2 t2] k2] c2] eqn:Er.
    apply request_ok in Er as [_ Er]; [|exact Hw1].
    destruct r2 as [|e|]; [|destruct e|]; inversion H; subst; cbn [p_c p_file];
      (split; [exact Er | intros Hg; exact (proj1 (Hacc Hg))]).
Qed.

Lemma init_good c1 env : accepted env -> good (mkP (mkF true [] false) c1 0 [] [] env).
Proof. intros H. repeat split; assumption. Qed.

Lemma putfo_ret_inv mrs chunks confirm env orp crp srp dest :
  putfo mrs chunks confirm env orp crp srp = (ORet, dest) ->
  (accepted env -> dest = concat chunks) /\
  (confirm = true -> srp = None -> zlen dest = zlen (concat chunks)).
Proof.
  unfold putfo. intros H.
  destruct (request c_init orp) as [[[r0 t0] k0] c1] eqn:Eo.
  apply request_ok in Eo as [_ Eo]; [|exact wf_init].
  destruct r0; try discriminate H.
  destruct (negb (t0 =? g_CMD_HANDLE)); try discriminate H.
  destruct (transfer mrs (mkP (mkF true [] false) c1 0 [] [] env) chunks 0) as [[r1 sz] s1] eqn:Et.
  destruct (pclose mrs s1 crp) as [r2 s2] eqn:Ec.
  destruct r1, r2; try discriminate H.
  apply transfer_spec in Et as (W1 & Hsz & Ht); [|exact Eo].
  apply pclose_spec in Ec as (W2 & Hc); [|exact W1].
  assert (Hd : dest = p_file s2 /\ (confirm = true -> srp = None -> zlen dest = sz)).
  { destruct confirm; [|injection H as <-; split; [reflexivity | discriminate]].
    destruct srp as [rp|].
    - destruct (request (p_c s2) rp) as [[[r3 t3] k3] c3]. destruct r3; try discriminate H.
      destruct (negb (t3 =? g_CMD_ATTRS)); try discriminate H.
      destruct (k3 =? sz); [|discriminate H]. injection H as <-. split; [reflexivity | discriminate].
    - (* the honest stat: ATTRS with the true size comes back as the server sent it *)
      destruct (request_spec (p_c s2) g_CMD_ATTRS (zlen (p_file s2)) W2) as (c' & _ & Hr).
      rewrite Hr in H.
      change (status_result g_CMD_ATTRS (zlen (p_file s2))) with (RFound g_CMD_ATTRS (zlen (p_file s2))) in H.
      cbv beta iota in H. change (negb (g_CMD_ATTRS =? g_CMD_ATTRS)) with false in H. cbv beta iota in H.
      destruct (zlen (p_file s2) =? sz) eqn:Ek; [|discriminate H]. injection H as <-.
      split; [reflexivity|]. intros _ _. apply Z.eqb_eq, Ek. }
  destruct Hd as [-> Hd]. split.
  - intros Ha. destruct (Ht (init_good c1 env Ha)) as (A & B & G).
    rewrite (Hc G), A, B. cbn [p_file p_wbuf app]. apply app_nil_r.
  - intros Hcf Hs. rewrite (Hd Hcf Hs), Hsz. apply Z.add_0_l.
Qed.

(* what a willing server replies to close (STATUS OK) and to open (a HANDLE) *)
Definition ok_rp : reply := (g_CMD_STATUS, g_SFTP_OK).
Definition handle_rp : reply := (g_CMD_HANDLE, 0).
