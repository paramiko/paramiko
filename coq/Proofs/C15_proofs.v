(* C15 -- the run loop's dispatch (Model/C15.v), one lemma per kind of packet: [conn_step] says
   what a connection-layer packet may do ([conn_spec]), [auth_packet_outputs] what an auth-layer
   packet may, the latter from the C14 fact that a step never clears the authenticated flag. *)
From PV Require Import Bytes C39 C14 C14_proofs C15.
Open Scope Z_scope.

Definition harmless (o : tout) : Prop :=
  match o with TReply _ | TRaise _ | TStop | TUnhandled => True | _ => False end.

Lemma harmless_not_service o : harmless o -> reaches_service o = false.
Proof. destruct o; cbn; tauto. Qed.

Lemma ptype_of_auth m : ptype_of (PAuth m) < 80.
Proof. destruct m; reflexivity. Qed.

Lemma ensure_authed_refuses ts pt c ku :
  t_server ts = true -> a_authed (t_auth ts) = false -> highest_userauth < pt ->
  ensure_authed ts pt c ku <> Ok None.
Proof.
  intros Hs Ha Hp. unfold ensure_authed, is_authenticated. rewrite Hs, Ha.
  replace (pt <=? highest_userauth) with false by lia. cbn [negb orb].
  destruct (negb (a_active (t_auth ts))), (pt =? gen_msg_global_request),
    (pt =? gen_msg_channel_open), (negb ku); discriminate.
Qed.

Definition conn_spec (ts : tstate) (pt c : Z) (ku : bool) (r : tstate * list tout) : Prop :=
  (t_server (fst r) = t_server ts /\ a_authed (t_auth (fst r)) = a_authed (t_auth ts) /\
   a_user (t_auth (fst r)) = a_user (t_auth ts) /\ a_fails (t_auth (fst r)) = a_fails (t_auth ts)) /\
  (ensure_authed (set_auth ts (set_expected (t_auth ts) [])) pt c ku = Ok None \/
   zmem c (t_chans ts) = true \/
   Forall harmless (snd r) /\ t_chans (fst r) = t_chans ts /\ t_seen (fst r) = t_seen ts).

Lemma inert_exit ts pt c ku ts' o :
  t_server ts' = t_server ts -> a_authed (t_auth ts') = a_authed (t_auth ts) ->
  a_user (t_auth ts') = a_user (t_auth ts) -> a_fails (t_auth ts') = a_fails (t_auth ts) ->
  t_chans ts' = t_chans ts -> t_seen ts' = t_seen ts -> Forall harmless o ->
  conn_spec ts pt c ku (ts', o).
Proof. unfold conn_spec. cbn [fst snd]. tauto. Qed.

Lemma conn_step sig_ok sid ts pt c ok ku e :
  conn_spec ts pt c ku (loop_step sig_ok sid ts (PConn pt c ok ku) e).
Proof.
  unfold loop_step. cbn [ptype_of].
  destruct (negb (a_active (t_auth ts))); [apply inert_exit; repeat constructor|].
  destruct (match a_expected (t_auth ts) with
            | [] => false
            | _ :: _ => negb (zmem pt (a_expected (t_auth ts)))
            end); [apply inert_exit; repeat constructor|].
  cbv zeta. destruct (zmem pt handler_types).
  - destruct (ensure_authed _ pt c ku) as [[[[|]|]|]|] eqn:E;
      [apply inert_exit; repeat constructor .. | | apply inert_exit; repeat constructor].
    split; [|left; exact E]. unfold conn_handler.
    destruct (_ && (pt =? gen_msg_global_request)); [repeat split|].
    destruct (_ && _); [destruct ok|]; repeat split.
  - destruct (zmem pt channel_types); [|apply inert_exit; repeat constructor].
    cbn [t_chans t_seen set_auth].
    destruct (zmem c (t_chans ts)) eqn:D; [split; [repeat split | right; left; exact D]|].
    destruct (zmem c (t_seen ts)); apply inert_exit; repeat constructor.
Qed.

Lemma auth_packet_outputs :
  forall sig_ok sid ts m e ts' outs,
    loop_step sig_ok sid ts (PAuth m) e = (ts', outs) ->
    (forall o, In o outs -> reaches_service o = false) /\
    t_chans ts' = t_chans ts /\ t_server ts' = t_server ts /\
    (a_authed (t_auth ts) = true -> a_authed (t_auth ts') = true).
Proof.
  intros sig_ok sid ts m e ts' outs H. unfold loop_step in H.
  destruct (negb (a_active (t_auth ts)));
    [injection H as <- <-; repeat split; auto; intros o []|].
  destruct (match a_expected (t_auth ts) with
            | [] => false
            | _ :: _ => negb (zmem (ptype_of (PAuth m)) (a_expected (t_auth ts)))
            end); [injection H as <- <-; cbn; repeat split; auto; intros o [<-|[]]; reflexivity|].
  cbv zeta in H. cbn [t_server t_auth set_auth] in H.
  destruct (t_server ts) eqn:Es; [|injection H as <- <-; cbn; repeat split; auto; intros o [<-|[]]; reflexivity].
  pose proof (authed_mono sig_ok sid (set_expected (t_auth ts) []) m e) as M.
  destruct (auth_step _ _ _ m e) as [a' o]. injection H as <- <-.
  repeat split; [|exact Es|exact M]. intros x (y & <- & _)%in_map_iff. reflexivity.
Qed.

Lemma loop_step_keeps sig_ok sid ts p e :
  t_server (fst (loop_step sig_ok sid ts p e)) = t_server ts /\
  (a_authed (t_auth ts) = true -> a_authed (t_auth (fst (loop_step sig_ok sid ts p e))) = true).
Proof.
  destruct p as [m|pt c ok ku].
  - destruct (loop_step sig_ok sid ts (PAuth m) e) as [ts' outs] eqn:E.
    destruct (auth_packet_outputs _ _ _ _ _ _ _ E) as (_ & _ & S & M). split; assumption.
  - destruct (conn_step sig_ok sid ts pt c ok ku e) as [(S & -> & _) _]. split; [exact S | auto].
Qed.

Lemma loop_run_mono sig_ok sid steps : forall ts,
  a_authed (t_auth ts) = true -> a_authed (t_auth (fst (loop_run sig_ok sid ts steps))) = true.
Proof.
  induction steps as [|[p e] r IH]; intros ts Ha; [exact Ha|]. cbn [loop_run].
  pose proof (proj2 (loop_step_keeps sig_ok sid ts p e) Ha) as H1.
  destruct (loop_step sig_ok sid ts p e) as [ts1 o1]. specialize (IH ts1 H1).
  destruct (loop_run sig_ok sid ts1 r). exact IH.
Qed.
