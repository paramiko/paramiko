(* [allowed r]: r is a value, SSHException or PasswordRequiredException.  It is carried through
   every reader of the model by [allowed_bind] and the tactic [al], which walks the binds and
   branches; the library oracles enter through the four hypotheses of the section.  The Ed25519
   private-section loop is used through [priv_loop_round]. *)
From Coq Require Import ZArith List Bool Lia.
From PV Require Import Bytes C39 C37.
Import ListNotations.
Open Scope Z_scope.

Definition allowed {A} (r : result A) : Prop :=
  match r with Ok _ => True | Raise e => e = SSHExc \/ e = PasswordRequired end.

Lemma allowed_bind {A B} (r : result A) (f : A -> result B) :
  allowed r -> (forall a, allowed (f a)) -> allowed (bind r f).
Proof. destruct r as [a|e]; cbn; auto. Qed.

Ltac al :=
  repeat first
    [ exact I
    | solve [auto with al]
    | match goal with
      | |- allowed (Raise SSHExc) => left; reflexivity
      | |- allowed (Raise PasswordRequired) => right; reflexivity
      | |- allowed (Ok _) => exact I
      | |- allowed (bind _ _) => apply allowed_bind; [ | intros ? ]
      | |- allowed (let '(_, _) := ?x in _) => destruct x
      | |- allowed (if ?c then _ else _) => destruct c
      | |- allowed (match ?x with _ => _ end) => destruct x
      end ].

Section Oracles.
  Variable b64 : list Z -> option (list Z).
  Variable utf8_ok : list Z -> bool.
  Variable pem_decrypt : list Z -> list Z -> list Z -> list Z -> dres.
  Variable ossh_decrypt : list Z -> list Z -> list Z -> Z -> list Z -> dres.
  Variable ed_cipher_known : list Z -> bool.
  Variable ed_decrypt : list Z -> list Z -> list Z -> Z -> list Z -> dres.
  Variable pk_of_seed : list Z -> list Z.
  Variable der_load : list Z -> derres.
  Variable rsa_numbers_ok : Z -> Z -> Z -> Z -> Z -> Z -> bool.
  Variable ec_derive_ok : list Z -> bool.

  (* the libraries raise only what they document (ValueError and subclasses on bad input) *)
  Hypothesis Hpem : forall a b c d k, pem_decrypt a b c d <> DOther k.
  Hypothesis Hossh : forall a b c r d k, ossh_decrypt a b c r d <> DOther k.
  Hypothesis Hed : forall a b c r d k, ed_decrypt a b c r d <> DOther k.
  Hypothesis Hder : forall x k, der_load x <> DerOther k.

  Lemma al_unpad d : allowed (unpad_openssh d).
  Proof. unfold unpad_openssh. al. Qed.

  Lemma al_cs_u d : allowed (cs_u d).
  Proof. unfold cs_u. al. Qed.
  Hint Resolve al_unpad al_cs_u : al.

  Lemma al_cs_s d : allowed (cs_s d).
  Proof. unfold cs_s. al. Qed.
  Hint Resolve al_cs_s : al.

  Lemma al_cs_i d : allowed (cs_i d).
  Proof. unfold cs_i. al. Qed.
  Hint Resolve al_cs_i : al.

  Lemma al_dres r : (forall k, r <> DOther k) -> allowed (of_dres r).
  Proof. intros H. destruct r; cbn; auto. exfalso. apply (H k). reflexivity. Qed.

  Lemma al_openssh lines pw : allowed (read_openssh b64 ossh_decrypt lines pw).
  Proof.
    unfold read_openssh.
    destruct (b64 (join lines)); [|al].
    destruct (negb (zlist_eqb (firstn 15 l) s_magic)); [al|].
    (* cipher, kdfname, kdfopts, the key count *)
    do 4 (apply allowed_bind; [al|intros [? ?]]).
    destruct (1 <? _); [al|].
    (* pubkey, blob *)
    do 2 (apply allowed_bind; [al|intros [? ?]]).
    apply allowed_bind.
    - destruct (zlist_eqb _ s_bcrypt); [|al].
      destruct (negb _); [al|]. destruct pw as [p|]; [|al].
      (* salt, rounds *)
      do 2 (apply allowed_bind; [al|intros [? ?]]).
      apply al_dres. intros k. apply Hossh.
    - intros dec.
      (* the two check ints, the key type *)
      do 3 (apply allowed_bind; [al|intros [? ?]]).
      al.
  Qed.

  Lemma al_pem lines e pw : allowed (read_pem b64 pem_decrypt lines e pw).
  Proof.
    unfold read_pem.
    destruct (header_loop (skipn 1 lines) 1 []) as [headers start].
    destruct (b64 (join (slice start e lines))); [|al].
    destruct (hget s_proc_type headers); [|al].
    destruct (negb (zlist_eqb l0 s_4enc)); [al|].
    destruct (hget s_dek_info headers) as [dek|]; [|al].
    destruct (split_comma dek) as [|etype [|salt [|x r]]]; try solve [al].
    destruct (negb (existsb (zlist_eqb etype) cipher_table)); [al|].
    destruct pw as [p|]; [|al].
    apply al_dres. intros k. apply Hpem.
  Qed.

  Lemma al_read_private_key t lines pw :
    allowed (read_private_key b64 pem_decrypt ossh_decrypt t lines pw).
  Proof.
    unfold read_private_key.
    destruct lines as [|l0 ls]; [al|].
    destruct (first_match (match_tag s_begin) (l0 :: ls) 0) as [[i keytype]|]; [|al].
    destruct (length (l0 :: ls) <=? S i)%nat; [al|].
    destruct (tag_eqb keytype t).
    - apply allowed_bind; [apply al_pem|intros; exact I].
    - destruct (tag_eqb keytype TOPENSSH); [|al].
      apply allowed_bind; [apply al_openssh|intros; exact I].
  Qed.

  Lemma al_rsa_decode fd : allowed (rsa_decode der_load rsa_numbers_ok fd).
  Proof.
    unfold rsa_decode. destruct fd as [[|] data].
    - destruct (der_load data) as [|cv| | |k] eqn:E; try solve [al]. exfalso. apply (Hder data k). exact E.
    - (* n, e, d, iqmp, p, q *)
      do 6 (apply allowed_bind; [al|intros [? ?]]).
      al.
  Qed.

  Lemma al_ecdsa_decode fd : allowed (ecdsa_decode der_load ec_derive_ok fd).
  Proof.
    unfold ecdsa_decode. destruct fd as [[|] data].
    - destruct (der_load data) as [|cv| | |k] eqn:E; try solve [al].
      exfalso. apply (Hder data k). exact E.
    - al.
  Qed.

  Lemma al_m_text buf pos : allowed (m_text utf8_ok buf pos).
  Proof. unfold m_text. al. Qed.
  Hint Resolve al_m_text : al.

  Lemma al_pub_loop n : forall buf pos, allowed (ed_pub_loop utf8_ok n buf pos).
  Proof.
    induction n as [|n IH]; intros buf pos; cbn [ed_pub_loop]; [exact I|].
    destruct (get_string buf pos) as [pkm p1].
    apply allowed_bind; [al|intros [nm q]].
    destruct (negb (zlist_eqb nm s_ed25519)); [al|].
    destruct (get_string pkm q) as [pk p2].
    apply allowed_bind; [apply IH|intros [l pe]; exact I].
  Qed.

  Lemma priv_loop_round n pubs buf pos :
    (exists e, ed_priv_loop utf8_ok pk_of_seed (S n) pubs buf pos = Raise e /\
               (e = SSHExc \/ e = PasswordRequired)) \/
    (exists seed pubs' pos', length seed = 32%nat /\ pubs = pk_of_seed seed :: pubs' /\
       ed_priv_loop utf8_ok pk_of_seed (S n) pubs buf pos
       = bind (ed_priv_loop utf8_ok pk_of_seed n pubs' buf pos') (fun l => Ok (seed :: l))).
  Proof.
    cbn [ed_priv_loop]. pose proof (al_m_text buf pos) as Am.
    destruct (m_text utf8_ok buf pos) as [[nm p1]|e]; cbn [bind]; [|left; eauto].
    destruct (negb (zlist_eqb nm s_ed25519)); [left; eauto|].
    destruct (get_string buf p1) as [public p2].
    destruct (get_string buf p2) as [key_data p3].
    destruct (negb (Nat.eqb (length (firstn 32 key_data)) 32)) eqn:El; [left; eauto|].
    destruct pubs as [|pk0 pubs']; [left; eauto|].
    destruct (negb (_ && _ && _)) eqn:Ec; [left; eauto|].
    destruct (get_string buf p3) as [c p4].
    right. exists (firstn 32 key_data), pubs', p4.
    apply negb_false_iff, Nat.eqb_eq in El.
    (* of the three comparisons the source makes, vk = public and public = pk0 give the head of pubs *)
    apply negb_false_iff in Ec. apply andb_true_iff in Ec as [Ec _].
    apply andb_true_iff in Ec as [E1 E2]. apply zlist_eqb_eq in E1, E2.
    rewrite <- E2, <- E1. split; [exact El | split; reflexivity].
  Qed.

  Lemma al_priv_loop n : forall pubs buf pos, allowed (ed_priv_loop utf8_ok pk_of_seed n pubs buf pos).
  Proof.
    induction n as [|n IH]; intros pubs buf pos; [exact I|].
    destruct (priv_loop_round n pubs buf pos) as [(e & -> & He) | (seed & pubs' & pos' & _ & _ & ->)];
      [exact He|].
    apply allowed_bind; [apply IH|intros; exact I].
  Qed.

  Lemma al_ed_parse data pw :
    allowed (ed_parse utf8_ok ed_cipher_known ed_decrypt pk_of_seed data pw).
  Proof.
    unfold ed_parse.
    destruct (get_bytes data 0 15) as [magic p0].
    destruct (negb (zlist_eqb magic s_magic)); [al|].
    apply allowed_bind; [al|intros [ciphername p1]].
    apply allowed_bind; [al|intros [kdfname p2]].
    destruct (get_string data p2) as [kdfoptions p3].
    destruct (get_int data p3) as [num_keys p4].
    apply allowed_bind.
    - destruct (zlist_eqb kdfname s_none); [al|].
      destruct (zlist_eqb kdfname s_bcrypt); [|al].
      destruct pw as [[|c r]|]; al.
    - intros [salt rounds].
      destruct (negb (zlist_eqb ciphername s_none) && negb (ed_cipher_known ciphername)); [al|].
      apply allowed_bind; [apply al_pub_loop|intros [pubs p5]].
      destruct (get_string data p5) as [ciphertext p6].
      apply allowed_bind.
      + destruct (zlist_eqb ciphername s_none); [exact I|]. apply al_dres. intros k. apply Hed.
      + intros private_data.
        apply allowed_bind; [al|intros msg].
        destruct (get_int msg 0) as [c1 q1]. destruct (get_int msg q1) as [c2 q2].
        destruct (negb (c1 =? c2)); [al|].
        apply allowed_bind; [apply al_priv_loop|intros seeds].
        destruct seeds as [|s [|s2 r]]; al.
  Qed.
End Oracles.
