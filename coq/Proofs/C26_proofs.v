(* The critical sections are used through the case lemma step_core_cases (relation core) and its
   summary core_spec.  Each invariant (Ififo, Iwake, Iev) is shown to be kept by every case; it then
   holds after every run from init (reach_inv, the rule of Lib/Sched.v), whichever threads the
   schedule interleaves. *)
From PV Require Import Bytes ListFacts Sched C26_gen C26.
Open Scope Z_scope.

Lemma take_spec s n :
  exists d b e,
    take s n = (mkS b (closed s) (has_ev s) e (waiters s) (hist s), ORet n d) /\
    d ++ b = buf s /\ (1 <= n -> d = [] -> buf s = []) /\
    (b <> [] \/ closed s = true -> e = ev s).
Proof.
  unfold take. destruct (Z.of_nat (length (buf s)) <=? n).
  - eexists _, _, _. split; [reflexivity|]. rewrite app_nil_r. repeat split; auto.
    intros [H| ->]; [easy|]. now rewrite andb_false_r.
  - eexists _, _, _. split; [reflexivity|]. rewrite firstn_skipn. repeat split; auto.
    apply firstn_nil_inv.
Qed.

Lemma loop_spec s i n t :
  (buf s = [] /\ closed s = false /\ loop s i n t = (set_waiter s i (Some (mkW n t false)), OBlocked)) \/
  ((buf s <> [] \/ closed s = true) /\ loop s i n t = take s n).
Proof.
  unfold loop. destruct (buf s), (closed s); cbn; auto. right. split; [now left|reflexivity].
Qed.

(* The critical sections, one case per path through [step_core] up to [loop] and [take]. *)
Inductive core (r : bool) (s : state) (i : Z) : act -> state * outcome -> Prop :=
  | core_wake_timeout w dt :
      waiters s i = Some w -> (r = true -> buf s = []) ->
      core r s i (AWake dt) (set_waiter s i None, OTimeout)
  | core_wake_loop w dt t :
      waiters s i = Some w -> core r s i (AWake dt) (loop (set_waiter s i None) i (w_n w) t)
  | core_feed d :
      core r s i (AFeed d)
           (mkS (buf s ++ d) (closed s) (has_ev s)
                (if has_ev s && (feed_sets_event_always || negb (is_nil (buf s ++ d)))
                 then true else ev s)
                (notify_all (waiters s)) (hist s), ODone)
  | core_read_eof n t : buf s = [] -> closed s = true -> core r s i (ARead n t) (s, ORet n [])
  | core_read_timeout n t : buf s = [] -> core r s i (ARead n t) (s, OTimeout)
  | core_read_loop n t : core r s i (ARead n t) (loop s i n t)
  | core_empty :
      core r s i AEmpty
           (mkS [] (closed s) (has_ev s) (if has_ev s && negb (closed s) then false else ev s)
                (waiters s) (hist s), OEmptied (buf s))
  | core_close :
      core r s i AClose
           (mkS (buf s) true (has_ev s) (has_ev s || ev s) (notify_all (waiters s)) (hist s), ODone)
  | core_setevent :
      core r s i ASetEvent
           (mkS (buf s) (closed s) true (closed s || negb (is_nil (buf s))) (waiters s) (hist s), ODone).

Lemma step_core_cases r s i x p : step_core r s (i, x) = Some p -> core r s i x p.
Proof.
  unfold step_core. destruct (waiters s i) as [w|] eqn:Ew; destruct x; try discriminate.
  - destruct (w_notified w || has_timeout w); [|discriminate].
    destruct (w_t w) as [t|]; [|intros [= <-]; now apply core_wake_loop with (w := w)].
    destruct (t - dt <=? 0) eqn:E1; [destruct (negb r || is_nil (buf s)) eqn:E2|]; cbn [andb]; intros [= <-];
      try now apply core_wake_loop with (w := w).
    apply core_wake_timeout with (w := w); [exact Ew|]. intros ->. now apply is_nil_true.
  - intros [= <-]. constructor.
  - destruct (is_nil (buf s)) eqn:E.
    + apply is_nil_true in E. destruct (closed s) eqn:Ec; [intros [= <-]; now constructor|].
      destruct (zero_timeout t); intros [= <-]; now constructor.
    + intros [= <-]. replace (take s n) with (loop s i n t) by (unfold loop; now rewrite E). constructor.
  - intros [= <-]. constructor.
  - intros [= <-]. constructor.
  - intros [= <-]. constructor.
Qed.

Lemma loop_fields s i n t :
  let p := loop s i n t in
  out_of (snd p) ++ buf (fst p) = buf s /\ hist (fst p) = hist s /\ closed (fst p) = closed s /\
  snd p <> OTimeout /\
  (forall m, snd p = ORet m [] -> 1 <= m -> buf s = [] /\ closed s = true).
Proof.
  destruct (loop_spec s i n t) as [(Hb & Hc & ->)|(Hr & ->)]; [now cbn|].
  destruct (take_spec s n) as (d & b & e & -> & Hd & Hn & He). cbn.
  do 4 (split; [easy|]). intros m [= <- ->] Hm. specialize (Hn Hm eq_refl).
  split; [exact Hn|]. now destruct Hr.
Qed.

Definition section_spec (r : bool) (s : state) (x : act) (s' : state) (o : outcome) : Prop :=
  out_of o ++ buf s' = buf s ++ in_of x /\ hist s' = hist s /\
  (closed s' = true -> closed s = true \/ x = AClose) /\
  (forall n, o = ORet n [] -> 1 <= n -> buf s = [] /\ closed s = true) /\
  (o = OTimeout -> buf s' = buf s /\ closed s' = closed s /\ (r = true -> buf s = [])).

Lemma core_spec r s i x p : core r s i x p -> section_spec r s x (fst p) (snd p).
Proof.
  assert (L : forall s0 n t, buf s0 = buf s -> hist s0 = hist s -> closed s0 = closed s -> in_of x = [] ->
              section_spec r s x (fst (loop s0 i n t)) (snd (loop s0 i n t))).
  { intros s0 n t Eb Eh Ec Ex. destruct (loop_fields s0 i n t) as (F & H & C & T & R).
    unfold section_spec. rewrite Ex, app_nil_r, <- Eb, <- Eh, <- Ec.
    repeat split; auto; try easy; [intros Hc; left; congruence|now apply (R n0)..]. }
  destruct 1 as [w dt Ew Hr|w dt t Ew|d|n t Hb Hc|n t Hb|n t| | |]; try now apply L.
  all: unfold section_spec; cbn; rewrite ?app_nil_r; repeat split; auto; easy.
Qed.

Lemma step_gen_core r s i x s' o :
  step_gen r s (i, x) = Some (s', o) -> exists s1, core r s i x (s1, o) /\ s' = log s1 ((i, x), o).
Proof.
  unfold step_gen. destruct (step_core r s (i, x)) as [[s1 o1]|] eqn:E; [|discriminate].
  intros [= <- <-]. eauto using step_core_cases.
Qed.

Lemma next_core s i x s' :
  next s (i, x) = Some s' -> exists s1 o, core true s i x (s1, o) /\ s' = log s1 ((i, x), o).
Proof.
  unfold next, step. destruct (step_gen true s (i, x)) as [[s2 o]|] eqn:E; [|discriminate].
  intros [= <-]. apply step_gen_core in E as (s1 & H & ->). eauto.
Qed.

Lemma next_of_step s a s' o : step s a = Some (s', o) -> next s a = Some s'.
Proof. unfold next. intros ->. reflexivity. Qed.

Lemma reach_inv (I : state -> Prop) sched s :
  I init -> (forall s a s', I s -> next s a = Some s' -> I s') -> run init sched = Some s -> I s.
Proof. intros I0 Hpres. exact (run_invariant next I Hpres sched init s I0). Qed.

Definition Ififo (s : state) : Prop := got_of (hist s) ++ buf s = fed_of (hist s).

Lemma fifo_step s a s' : Ififo s -> next s a = Some s' -> Ififo s'.
Proof.
  unfold Ififo. destruct a as [i x]. intros I (s1 & o & H & ->)%next_core.
  apply core_spec in H as (Hb & Hh & _). cbn in *. rewrite Hh.
  rewrite <- app_assoc, Hb, app_assoc, I. reflexivity.
Qed.

Lemma fed_hist l : forall s s', run s l = Some s' -> fed_of (hist s') = fed_of (hist s) ++ feeds l.
Proof.
  induction l as [|[i x] l IH]; intros s s' H; cbn in H.
  - injection H as <-. cbn. now rewrite app_nil_r.
  - destruct (next s (i, x)) as [s1|] eqn:E; [|discriminate].
    rewrite (IH _ _ H). apply next_core in E as (s0 & o & (_ & Hh & _)%core_spec & ->).
    cbn in *. now rewrite Hh, app_assoc.
Qed.

Lemma closed_hist l : forall s s',
  run s l = Some s' -> closed s' = true -> closed s = true \/ exists j, In (j, AClose) l.
Proof.
  induction l as [|[i x] l IH]; intros s s' H Hc; cbn in H.
  - injection H as <-. auto.
  - destruct (next s (i, x)) as [s1|] eqn:E; [|discriminate].
    destruct (IH _ _ H Hc) as [H1 | [j Hj]]; [|right; exists j; now right].
    apply next_core in E as (s0 & o & (_ & _ & C & _)%core_spec & ->).
    destruct (C H1) as [Hs|Hx]; [auto|]. subst x. right. exists i. now left.
Qed.

Lemma reach_fifo sched s : run init sched = Some s -> got_of (hist s) ++ buf s = feeds sched.
Proof.
  intros Hrun. rewrite (reach_inv Ififo sched s eq_refl fifo_step Hrun). apply (fed_hist _ _ _ Hrun).
Qed.

(* no lost wake-up *)
Definition Iwake (s : state) : Prop :=
  forall i w, waiters s i = Some w -> w_notified w = false -> buf s = [] /\ closed s = false.

Lemma Iwake_unwait s i : Iwake s -> Iwake (set_waiter s i None).
Proof. intros I j w Hj Hn. cbn in Hj. destruct (j =? i); [discriminate|]. exact (I j w Hj Hn). Qed.

Lemma loop_Iwake s i n t : Iwake s -> Iwake (fst (loop s i n t)).
Proof.
  intros I. destruct (loop_spec s i n t) as [(Hb & Hc & ->)|(_ & ->)]; [now intros j w _ _|].
  destruct (take_spec s n) as (d & b & e & -> & Hd & _). intros j w Hj Hn.
  destruct (I j w Hj Hn) as [Hb Hc]. rewrite Hb in Hd. now apply app_eq_nil in Hd.
Qed.

Lemma core_Iwake r s i x p : Iwake s -> core r s i x p -> Iwake (fst p).
Proof.
  intros I.
  (* feed and close notify everybody *)
  assert (N : forall b c h e, Iwake (mkS b c h e (notify_all (waiters s)) (hist s))).
  { intros b c h e j w Hj Hn. cbn in Hj. unfold notify_all in Hj.
    destruct (waiters s j); [injection Hj as <-|]; discriminate. }
  destruct 1; cbn [fst]; auto using Iwake_unwait, loop_Iwake.
  intros j w Hj Hn. now destruct (I j w Hj Hn).
Qed.

Lemma wake_step s a s' : Iwake s -> next s a = Some s' -> Iwake s'.
Proof. destruct a as [i x]. intros I (s1 & o & H & ->)%next_core. exact (core_Iwake _ _ _ _ _ I H). Qed.

Lemma Iwake_init : Iwake init.
Proof. intros i w H. discriminate H. Qed.

Definition Iev (s : state) : Prop :=
  has_ev s = true -> (buf s <> [] \/ closed s = true) -> ev s = true.

Lemma loop_Iev s i n t : Iev s -> Iev (fst (loop s i n t)).
Proof.
  intros I. destruct (loop_spec s i n t) as [(Hb & Hc & ->)|(_ & ->)]; [exact I|].
  destruct (take_spec s n) as (d & b & e & -> & Hd & _ & He). intros Hev Hr. cbn in *.
  rewrite (He Hr). apply I; [exact Hev|]. destruct Hr as [Hr|Hr]; [left|now right].
  rewrite <- Hd. intros [_ E]%app_eq_nil. easy.
Qed.

Lemma core_Iev r s i x p : Iev s -> core r s i x p -> Iev (fst p).
Proof.
  intros I. destruct 1; cbn [fst]; try exact I; try (apply loop_Iev; exact I); intros Hev Hr;
    cbn [has_ev buf closed ev] in *.
  - (* feed: whichever way the generated flag says the event is set *)
    rewrite Hev. destruct feed_sets_event_always, (buf s ++ d) eqn:E; cbn; auto.
    apply I; [exact Hev|]. destruct Hr; [easy|now right].
  - destruct Hr as [Hr|Hr]; [easy|]. rewrite Hr, andb_false_r. apply I; auto.
  - now rewrite Hev.
  - destruct Hr as [Hr|Hr]; [apply is_nil_false in Hr|]; rewrite Hr; auto using orb_true_r.
Qed.

Lemma ev_step s a s' : Iev s -> next s a = Some s' -> Iev s'.
Proof. destruct a as [i x]. intros I (s1 & o & H & ->)%next_core. exact (core_Iev _ _ _ _ _ I H). Qed.

Lemma Iev_init : Iev init.
Proof. intros H. discriminate H. Qed.

Lemma loop_ready s i n t :
  buf s <> [] \/ closed s = true -> exists s' d, loop s i n t = (s', ORet n d).
Proof.
  intros Hr. destruct (loop_spec s i n t) as [(Hb & Hc & _)|(_ & ->)].
  - destruct Hr; congruence.
  - destruct (take_spec s n) as (d & b & e & -> & _). eauto.
Qed.

Lemma wake_completes r s i w dt :
  waiters s i = Some w -> w_notified w = true -> buf s <> [] \/ closed s = true ->
  exists s' o, step_gen r s (i, AWake dt) = Some (s', o) /\ o <> OBlocked.
Proof.
  intros Hw Hn Hr. unfold step_gen. destruct (step_core r s (i, AWake dt)) as [[s1 o]|] eqn:E.
  - eexists _, o. split; [reflexivity|]. apply step_core_cases in E.
    inversion E as [w' dt' _ _ | w' dt' t _ L | | | | | | |]; [discriminate|].
    destruct (loop_ready (set_waiter s i None) i (w_n w') t Hr) as (s2 & d & E'). congruence.
  - unfold step_core in E. rewrite Hw, Hn in E. cbn [orb] in E.
    destruct (w_t w); [destruct (_ && _)|]; discriminate E.
Qed.

Definition v0_sched : list action := [(1, ARead 2 (Some 5)); (0, AFeed [7])].

Definition ex_progs : list (list action) :=
  [ [(0, AFeed [1; 2; 3]); (0, AClose)];
    [(1, ARead 2 (Some 5)); (1, AWake 5); (1, ARead 2 None); (1, AWake 0)];
    [(2, AEmpty)] ].
Definition ex_sched : list action :=
  [(1, ARead 2 (Some 5)); (0, AFeed [1; 2; 3]); (1, AWake 5); (2, AEmpty);
   (1, ARead 2 None); (0, AClose); (1, AWake 0)].
