(* C28 — proofs over Model/C28.v.
   Two invariants carry everything.  `good`: every prefetch buffer and the read buffer hold the file's
   own bytes at their offsets (`valid`), and the wire is consistent (`wire_ok`: the extent registered
   under a request's number is the one that was requested, so a delivered reply is stored where it
   belongs).  `live_ok`: every request in flight is registered or about to be, and _prefetch_done is
   clear only while something is outstanding.  Every environment step and every reader operation
   `keeps` both (Section Steps).  The read theorems follow `good` along the loops of _read_prefetch,
   _read and BufferedFile.read; termination comes from `live_ok` (some step is enabled) and a measure
   that every environment step decreases. *)
From Coq Require Import ZArith List Bool Lia.
From PV Require Import Bytes ListFacts C28 C28_gen.
Import ListNotations.
Open Scope Z_scope.

Lemma zlen_nonneg {A} (l : list A) : 0 <= zlen l.
Proof. unfold zlen. lia. Qed.

Lemma zlen_app {A} (a b : list A) : zlen (a ++ b) = zlen a + zlen b.
Proof. unfold zlen. rewrite app_length. lia. Qed.

Lemma zlen_nil_iff {A} (l : list A) : zlen l = 0 <-> l = [].
Proof. unfold zlen. destruct l; cbn; split; intros; try reflexivity; try discriminate; lia. Qed.

Lemma ztake_drop {A} n (l : list A) : ztake n l ++ zdrop n l = l.
Proof. apply firstn_skipn. Qed.

Lemma zlen_ztake {A} n (l : list A) : 0 <= n -> zlen (ztake n l) = Z.min n (zlen l).
Proof. intros Hn. unfold ztake, zlen. rewrite firstn_length. unfold zlen. lia. Qed.

Lemma zlen_zdrop {A} n (l : list A) : 0 <= n -> zlen (zdrop n l) = zlen l - Z.min n (zlen l).
Proof. intros Hn. unfold zdrop, zlen. rewrite skipn_length. unfold zlen. lia. Qed.

Lemma ztake_zero {A} (l : list A) : ztake 0 l = [].
Proof. unfold ztake. pose proof (zlen_nonneg l). replace (Z.min 0 (zlen l)) with 0 by lia. reflexivity. Qed.

Lemma ztake_nil {A} n : @ztake A n [] = [].
Proof. apply firstn_nil. Qed.

Lemma zdrop_nil {A} n : @zdrop A n [] = [].
Proof. apply skipn_nil. Qed.

Lemma zdrop_app_exact {A} (pre x : list A) : zdrop (zlen pre) (pre ++ x) = x.
Proof.
  unfold zdrop. rewrite zlen_app. pose proof (zlen_nonneg x).
  replace (Z.min (zlen pre) (zlen pre + zlen x)) with (zlen pre) by lia.
  unfold zlen. rewrite Nat2Z.id. apply skipn_app_exact.
Qed.

Lemma ztake_app_le {A} n (d post : list A) : n <= zlen d -> ztake n (d ++ post) = ztake n d.
Proof.
  intros Hn. unfold ztake. rewrite zlen_app. pose proof (zlen_nonneg post).
  replace (Z.min n (zlen d + zlen post)) with (Z.min n (zlen d)) by lia.
  apply firstn_app_le. unfold zlen. lia.
Qed.

Lemma ztake_all {A} n (d : list A) : zlen d <= n -> ztake n d = d.
Proof.
  intros Hn. unfold ztake. replace (Z.min n (zlen d)) with (zlen d) by lia.
  unfold zlen. rewrite Nat2Z.id. apply firstn_all.
Qed.

Lemma remove_nth_Add {A} i : forall (l : list A) x, nth_error l i = Some x -> Add x (remove_nth i l) l.
Proof.
  induction i as [|i IH]; intros [|h t] x; cbn; try discriminate.
  - intros [= ->]. constructor.
  - intros H. constructor. now apply IH.
Qed.

Lemma remove_nth_in {A} i (l : list A) x : In x (remove_nth i l) -> In x l.
Proof.
  revert i. induction l as [|h t IH]; intros [|i]; cbn; auto.
  intros [->|H]; [now left|right; eauto].
Qed.

Definition keys {V} (d : dict V) : list Z := map fst d.

Lemma dget_in {V} (d : dict V) k v : dget d k = Some v -> In (k, v) d.
Proof.
  induction d as [|[k' v'] r IH]; cbn; [discriminate|].
  destruct (k' =? k) eqn:E; intros H.
  - injection H as ->. left. f_equal. lia.
  - right. now apply IH.
Qed.

Lemma dget_set {V} (d : dict V) k v x :
  dget (dset d k v) x = if x =? k then Some v else dget d x.
Proof.
  induction d as [|[k' v'] r IH]; cbn.
  - destruct (k =? x) eqn:E, (x =? k) eqn:E2; try reflexivity; lia.
  - destruct (k' =? k) eqn:E; cbn.
    + destruct (k =? x) eqn:E2, (x =? k) eqn:E3; try lia; try reflexivity.
      destruct (k' =? x) eqn:E4; [lia|reflexivity].
    + destruct (k' =? x) eqn:E2; [|apply IH].
      destruct (x =? k) eqn:E3; [lia|reflexivity].
Qed.

Lemma dget_del {V} (d : dict V) k x :
  dget (ddel d k) x = if x =? k then None else dget d x.
Proof.
  induction d as [|[k' v'] r IH]; cbn; [now destruct (x =? k)|].
  destruct (k' =? k) eqn:E; cbn; destruct (k' =? x) eqn:E2; rewrite ?IH;
    destruct (x =? k) eqn:E3; try reflexivity; lia.
Qed.

Lemma dget_keys {V} (d : dict V) k : In k (keys d) <-> dget d k <> None.
Proof.
  induction d as [|[k' v'] r IH]; cbn; [intuition|].
  destruct (k' =? k) eqn:E; [|rewrite <- IH]; intuition (lia || congruence).
Qed.

Lemma keys_dset {V} (d : dict V) k v x : In x (keys (dset d k v)) <-> x = k \/ In x (keys d).
Proof. rewrite !dget_keys, dget_set. destruct (x =? k) eqn:E; intuition (lia || congruence). Qed.

Lemma keys_ddel {V} (d : dict V) k x : In x (keys (ddel d k)) <-> x <> k /\ In x (keys d).
Proof. rewrite !dget_keys, dget_del. destruct (x =? k) eqn:E; intuition (lia || congruence). Qed.

Lemma keys_snoc {V} (d : dict V) k v x : In x (keys (d ++ [(k, v)])) <-> In x (keys d) \/ x = k.
Proof. unfold keys. rewrite map_app. apply in_snoc. Qed.

Lemma keys_remove_nth {V} i (l : dict V) k v :
  nth_error l i = Some (k, v) -> NoDup (keys l) ->
  NoDup (keys (remove_nth i l)) /\ forall x, In x (keys (remove_nth i l)) <-> x <> k /\ In x (keys l).
Proof.
  unfold keys. intros En Hn. pose proof (Add_map fst _ _ _ (remove_nth_Add _ _ _ En)) as Ha. cbn [fst] in Ha.
  apply (NoDup_Add Ha) in Hn as [Hn Hk]. split; [exact Hn|].
  intros x. rewrite (Add_in Ha). cbn. intuition congruence.
Qed.

Arguments keys : simpl never.

Lemma max_key_le_bound {V} (d : dict V) off best r :
  max_key_le d off best = Some r -> (forall b, best = Some b -> b <= off) -> r <= off.
Proof.
  revert best. induction d as [|[k v] t IH]; cbn; intros best H Hb.
  - now apply Hb.
  - destruct (k <=? off) eqn:E.
    + apply (IH _ H). intros b Hb'. destruct best as [b0|]; injection Hb' as <-; [|lia].
      specialize (Hb b0 eq_refl). lia.
    + exact (IH _ H Hb).
Qed.

Lemma data_in_buffers_spec dd off idx :
  data_in_buffers dd off = Some idx ->
  exists buf, dget dd idx = Some buf /\ idx <= off /\ off - idx < zlen buf.
Proof.
  unfold data_in_buffers. destruct (max_key_le dd off None) as [i|] eqn:Em; [|discriminate].
  destruct (dget dd i) as [buf|] eqn:Eg; [|discriminate].
  destruct (zlen buf <=? off - i) eqn:El; [discriminate|]. intros [= <-].
  exists buf. split; [assumption|]. split; [|lia].
  apply (max_key_le_bound _ _ _ _ Em). discriminate.
Qed.

Definition same_file (s s' : state) : Prop :=
  realpos s' = realpos s /\ pos s' = pos s /\ rbuffer s' = rbuffer s.

Lemma same_file_refl s : same_file s s.
Proof. unfold same_file. auto. Qed.

Lemma same_file_trans a b c : same_file a b -> same_file b c -> same_file a c.
Proof. unfold same_file. intuition congruence. Qed.

Section WithFile.
Variable file : list Z.

Definition valid (o : Z) (d : list Z) : Prop :=
  d = [] \/ exists pre post, file = pre ++ d ++ post /\ zlen pre = o.

Definition buf_ok (dd : dict (list Z)) : Prop := Forall (fun kv => valid (fst kv) (snd kv)) dd.

Lemma take_is_slice p rb size :
  valid p rb -> 0 <= size ->
  size <= zlen rb \/ zlen file <= p + zlen rb ->
  ztake size rb = slice file p size.
Proof.
  intros Hv Hs Hc. destruct Hv as [-> | (pre & post & Hf & Hl)].
  - rewrite ztake_nil. unfold zlen at 1 in Hc. cbn in Hc. destruct Hc as [Hc|Hc].
    + assert (size = 0) by lia. subst. unfold slice. now rewrite ztake_zero.
    + unfold slice, zdrop. replace (Z.min p (zlen file)) with (zlen file) by lia.
      unfold zlen at 1. rewrite Nat2Z.id, skipn_all. now rewrite ztake_nil.
  - unfold slice. subst p. rewrite Hf, zdrop_app_exact. destruct Hc as [Hc|Hc].
    + now rewrite ztake_app_le.
    + rewrite Hf, !zlen_app in Hc. pose proof (zlen_nonneg post).
      assert (post = []) by (apply zlen_nil_iff; lia). subst. now rewrite app_nil_r.
Qed.

Lemma valid_is_slice o d : valid o d -> d = slice file o (zlen d).
Proof.
  intros Hv. rewrite <- (take_is_slice o d (zlen d) Hv); [|apply zlen_nonneg|left; lia].
  symmetry. apply ztake_all. lia.
Qed.

Lemma valid_slice o n : 0 <= o -> o <= zlen file -> valid o (slice file o n).
Proof.
  intros Ho Hf. right. exists (ztake o file), (zdrop n (zdrop o file)). split.
  - unfold slice. rewrite ztake_drop. symmetry. apply ztake_drop.
  - rewrite zlen_ztake by lia. lia.
Qed.

Lemma valid_take o d n : valid o d -> valid o (ztake n d).
Proof.
  intros [-> | (pre & post & Hf & Hl)].
  - left. apply ztake_nil.
  - right. exists pre, (zdrop n d ++ post). split; [|assumption].
    rewrite (app_assoc (ztake n d)). now rewrite ztake_drop.
Qed.

Lemma valid_drop o d n : valid o d -> 0 <= n -> valid (o + Z.min n (zlen d)) (zdrop n d).
Proof.
  intros [-> | (pre & post & Hf & Hl)] Hn.
  - left. apply zdrop_nil.
  - right. exists (pre ++ ztake n d), post. split.
    + rewrite <- app_assoc. rewrite (app_assoc (ztake n d)). now rewrite ztake_drop.
    + rewrite zlen_app, zlen_ztake by lia. lia.
Qed.

Lemma valid_app o a b : valid o a -> valid (o + zlen a) b -> valid o (a ++ b).
Proof.
  intros Ha Hb.
  destruct Ha as [-> | (p1 & q1 & Hf1 & Hl1)].
  { cbn in *. unfold zlen in Hb. cbn in Hb. now rewrite Z.add_0_r in Hb. }
  destruct Hb as [-> | (p2 & q2 & Hf2 & Hl2)].
  { rewrite app_nil_r. right. now exists p1, q1. }
  right. exists p1, q2. split; [|assumption].
  assert (E : (p1 ++ a) ++ q1 = p2 ++ b ++ q2) by (rewrite <- app_assoc; congruence).
  apply app_len_inj in E as [E1 E2].
  - rewrite Hf2, <- E1. now rewrite <- !app_assoc.
  - apply Nat2Z.inj. fold (zlen (p1 ++ a)). fold (zlen p2). rewrite zlen_app. lia.
Qed.

(* read_prefetch: the part of the buffer under key o from the read position rp on ... *)
Lemma valid_suffix o buf rp :
  valid o buf -> o <= rp < o + zlen buf ->
  let bo := rp - o in
  valid rp (if 0 <? bo then zdrop bo buf else buf) /\
  zlen (if 0 <? bo then zdrop bo buf else buf) = zlen buf - bo.
Proof.
  intros Hv Hb bo. destruct (0 <? bo) eqn:E.
  - rewrite zlen_zdrop by lia. split; [|lia].
    replace rp with (o + Z.min bo (zlen buf)) by lia. apply valid_drop; [assumption|lia].
  - replace rp with o by lia. split; [assumption|lia].
Qed.

(* ... of which at most `size` bytes are handed out, the rest staying behind under its own key *)
Lemma valid_prefix o p size :
  valid o p -> 1 <= size -> 1 <= zlen p ->
  let d := if size <? zlen p then ztake size p else p in
  d <> [] /\ valid o d /\ zlen d <= size /\ (size < zlen p -> valid (o + size) (zdrop size p)).
Proof.
  intros Hv Hs Hp d.
  assert (Hd : zlen d = Z.min size (zlen p)).
  { unfold d. destruct (size <? zlen p) eqn:E; [rewrite zlen_ztake|]; lia. }
  split; [|split; [|split]].
  - intros Hn. apply zlen_nil_iff in Hn. lia.
  - unfold d. destruct (size <? zlen p); [now apply valid_take|assumption].
  - lia.
  - intros Hlt. replace (o + size) with (o + Z.min size (zlen p)) by lia. apply valid_drop; [assumption|lia].
Qed.

Lemma buf_ok_get dd k v : buf_ok dd -> dget dd k = Some v -> valid k v.
Proof. intros Hb Hg. exact (proj1 (Forall_forall _ _) Hb _ (dget_in _ _ _ Hg)). Qed.

Lemma buf_ok_set dd k v : buf_ok dd -> valid k v -> buf_ok (dset dd k v).
Proof.
  intros Hb Hv. induction Hb as [|[k' v'] r H1 H2 IH]; cbn.
  - constructor; [exact Hv|constructor].
  - destruct (k' =? k); constructor; assumption.
Qed.

Lemma buf_ok_del dd k : buf_ok dd -> buf_ok (ddel dd k).
Proof.
  intros Hb. induction Hb as [|[k' v'] r H1 H2 IH]; cbn; [constructor|].
  destruct (k' =? k); [exact IH|constructor; assumption].
Qed.

Lemma server_read_ok o n k :
  0 <= o -> 1 <= n -> 1 <= k ->
  match server_read file o n k false with
  | RData d => d <> [] /\ valid o d /\ zlen d <= n
  | REof => zlen file <= o
  | RFail => False
  end.
Proof.
  intros Ho Hn Hk. unfold server_read. destruct (zlen file <=? o) eqn:E; [lia|].
  split; [|split].
  - intros H. apply zlen_nil_iff in H. unfold slice in H. rewrite zlen_ztake, zlen_zdrop in H by lia. lia.
  - apply valid_slice; lia.
  - unfold slice. rewrite zlen_ztake by lia. lia.
Qed.

Lemma server_data_valid o n k d :
  0 <= o -> server_read file o n k false = RData d -> valid o d.
Proof.
  intros Ho. unfold server_read. destruct (zlen file <=? o) eqn:E; [discriminate|].
  intros H. injection H as <-. apply valid_slice; lia.
Qed.

Record wire_ok (s : state) : Prop := {
  w_inf_lt : forall num c, In (num, c) (inflight s) -> num < nextnum s;
  w_ext_lt : forall num c, dget (extents s) num = Some c -> num < nextnum s;
  w_pend_lt : forall num c, In (num, c) (pending s) -> num < nextnum s;
  w_pend : forall num c c', In (num, c) (pending s) -> In (num, c') (inflight s) -> c = c';
  w_ext : forall num c c', dget (extents s) num = Some c -> In (num, c') (inflight s) -> c = c';
  w_pos : forall num o n, In (num, (o, n)) (inflight s) -> 0 <= o /\ 1 <= n;
  w_unsent : forall o n cap, In (o, n, cap) (unsent s) -> 0 <= o /\ 1 <= n
}.

Definition inv (s : state) : Prop := buf_ok (data s) /\ wire_ok s.

(* the server's choice for a reply: at least one byte where the file has any, never a failure status *)
Definition lab_ok (l : label) : Prop :=
  match l with LDeliver _ k f => 1 <= k /\ f = false | _ => True end.

Definition orc_ok (o : oracle) : Prop :=
  Forall lab_ok (o_wait o) /\ Forall lab_ok (o_sync o) /\ 1 <= o_k o /\ o_fail o = false.

Definition rb_ok (s : state) : Prop :=
  valid (pos s) (rbuffer s) /\ realpos s = pos s + zlen (rbuffer s) /\ 0 <= pos s.

Lemma rb_ok_same s s' : same_file s s' -> rb_ok s -> rb_ok s'.
Proof. intros (A & B & C) (D & E & F). unfold rb_ok. rewrite A, B, C. auto. Qed.

Lemma rb_ok_realpos s : rb_ok s -> 0 <= realpos s.
Proof. intros (_ & A & B). pose proof (zlen_nonneg (rbuffer s)). lia. Qed.

End WithFile.

Inductive action :=
  | AEnv (l : label)
  | ARead (maxreq bufsize : Z) (orcs : list oracle) (size : Z)
  | ASeek (o : Z)
  | APrefetch (maxreq file_size cap : Z)
  | AReadv (maxreq bufsize : Z) (orcss : list (list oracle)) (chunks : list (Z * Z)) (cap : Z).

Definition action_ok (a : action) : Prop :=
  match a with
  | AEnv l => lab_ok l
  | ARead maxreq _ orcs size => Forall orc_ok orcs /\ 1 <= maxreq /\ 0 <= size
  | ASeek o => 0 <= o
  | APrefetch maxreq _ _ => 1 <= maxreq
  | AReadv maxreq _ orcss chunks _ =>
      Forall (Forall orc_ok) orcss /\ 1 <= maxreq /\ Forall (fun c => 0 <= fst c /\ 0 <= snd c) chunks
  end.

Definition action_caps_ok (a : action) : Prop :=
  match a with
  | APrefetch _ _ cap => 0 <= cap
  | AReadv _ _ _ _ cap => 0 <= cap
  | _ => True
  end.

Definition do_action (file : list Z) (s : state) (a : action) : option state :=
  match a with
  | AEnv l => env_step file s l
  | ARead maxreq bufsize orcs size => Some (fst (bf_read file maxreq bufsize orcs s size))
  | ASeek o => Some (seek s o)
  | APrefetch maxreq fs cap => Some (prefetch maxreq s fs cap)
  | AReadv maxreq bufsize orcss chunks cap =>
      match readv file maxreq bufsize orcss s chunks cap with
      | Some (s', _) => Some s'
      | None => None
      end
  end.

Fixpoint do_actions (file : list Z) (s : state) (acts : list action) : option state :=
  match acts with
  | [] => Some s
  | a :: r => match do_action file s a with Some s' => do_actions file s' r | None => None end
  end.

Definition good (file : list Z) (s : state) : Prop :=
  inv file s /\ rb_ok file s /\ saved s = false.

Record live_ok (s : state) : Prop := {
  l_ext_inf : forall num, In num (keys (extents s)) -> In num (keys (inflight s));
  l_pend_inf : forall num, In num (keys (pending s)) -> In num (keys (inflight s)) /\ ~ In num (keys (extents s));
  l_inf_cov : forall num, In num (keys (inflight s)) -> In num (keys (extents s)) \/ In num (keys (pending s));
  l_nodup_inf : NoDup (keys (inflight s));
  l_nodup_pend : NoDup (keys (pending s));
  l_done : prefetching s = true -> pdone s = false -> unsent s <> [] \/ pending s <> [] \/ extents s <> [];
  l_cap : forall o n cap, In (o, n, cap) (unsent s) -> 0 <= cap
}.

Definition work (s : state) : Prop := unsent s <> [] \/ pending s <> [] \/ inflight s <> [].

Definition measure (s : state) : nat := 3 * length (unsent s) + length (pending s) + length (inflight s).

Lemma good_init file n : good file (init_state n).
Proof.
  split; [split|split].
  - constructor.
  - constructor; cbn; try contradiction; try discriminate.
  - unfold rb_ok. cbn. split; [now left|]. unfold zlen. cbn. lia.
  - reflexivity.
Qed.

Lemma live_init n : live_ok (init_state n).
Proof. constructor; cbn; try contradiction; try constructor. discriminate. Qed.

(* wire_ok and live_ok look only at fields that the reader's own steps copy (the request number may
   grow, _prefetching may be cleared) *)
Definition env_eq (s s' : state) : Prop :=
  extents s' = extents s /\ pdone s' = pdone s /\ unsent s' = unsent s /\ pending s' = pending s /\
  inflight s' = inflight s /\ nextnum s <= nextnum s' /\ (prefetching s' = true -> prefetching s = true).

Lemma env_eq_mk s d b sv rp p rb n :
  nextnum s <= n -> (b = true -> prefetching s = true) ->
  env_eq s (mkState d (extents s) (pdone s) b sv rp p rb (unsent s) (pending s) (inflight s) n).
Proof. intros Hn Hb. repeat split; assumption. Qed.

(* wire_ok asks something of each entry present: it survives dropping entries and advancing the number *)
Lemma wire_mono s s' :
  wire_ok s -> incl (inflight s') (inflight s) ->
  (forall num c, dget (extents s') num = Some c -> dget (extents s) num = Some c) ->
  incl (pending s') (pending s) -> incl (unsent s') (unsent s) -> nextnum s <= nextnum s' ->
  wire_ok s'.
Proof.
  intros [W1 W2 W3 W4 W5 W6 W7] Hi He Hp Hu Hn. constructor.
  - intros num c H. specialize (W1 _ _ (Hi _ H)). lia.
  - intros num c H. specialize (W2 _ _ (He _ _ H)). lia.
  - intros num c H. specialize (W3 _ _ (Hp _ H)). lia.
  - intros num c c' H1 H2. exact (W4 _ _ _ (Hp _ H1) (Hi _ H2)).
  - intros num c c' H1 H2. exact (W5 _ _ _ (He _ _ H1) (Hi _ H2)).
  - intros num o n H. exact (W6 _ _ _ (Hi _ H)).
  - intros o n cap H. exact (W7 _ _ _ (Hu _ H)).
Qed.

Lemma wire_eq s s' : env_eq s s' -> wire_ok s -> wire_ok s'.
Proof.
  intros (A & _ & C & D & E & F & _) Hw.
  apply (wire_mono s); rewrite ?A, ?C, ?D, ?E; auto using incl_refl.
Qed.

Lemma live_eq s s' : env_eq s s' -> live_ok s -> live_ok s'.
Proof.
  intros (A & B & C & D & E & _ & F) [L1 L2 L3 L4 L5 L6 L7].
  constructor; rewrite ?A, ?B, ?C, ?D, ?E; auto.
Qed.

Definition keeps (file : list Z) (s s' : state) : Prop := good file s' /\ (live_ok s -> live_ok s').

Lemma keeps_refl file s : good file s -> keeps file s s.
Proof. intros H. split; auto. Qed.

Lemma keeps_trans file a b c : keeps file a b -> keeps file b c -> keeps file a c.
Proof. intros [_ L1] [G L2]. split; auto. Qed.

Lemma reader_step file s s' :
  good file s -> env_eq s s' -> buf_ok file (data s') -> rb_ok file s' -> saved s' = false ->
  keeps file s s'.
Proof.
  intros ((_ & Hw) & _) He Hb Hrb Hsv. split; [|apply live_eq, He].
  split; [split; [exact Hb|exact (wire_eq _ _ He Hw)]|now split].
Qed.

Section Steps.
Variable file : list Z.

(* env_step read backwards: what was looked up, and the state that results *)
Inductive env_stepped (s : state) : label -> state -> Prop :=
  | stepped_send i o n cap :
      nth_error (unsent s) i = Some (o, n, cap) ->
      env_stepped s (LSend i)
        (mkState (data s) (extents s) (pdone s) (prefetching s) (saved s) (realpos s) (pos s) (rbuffer s)
                 (remove_nth i (unsent s)) (pending s ++ [(nextnum s, (o, n))])
                 (inflight s ++ [(nextnum s, (o, n))]) (nextnum s + 1))
  | stepped_reg i num c :
      nth_error (pending s) i = Some (num, c) ->
      env_stepped s (LReg i)
        (mkState (data s) (dset (extents s) num c) (pdone s) (prefetching s) (saved s) (realpos s) (pos s)
                 (rbuffer s) (unsent s) (remove_nth i (pending s)) (inflight s) (nextnum s))
  | stepped_deliver i k fail num o n eo el :
      nth_error (inflight s) i = Some (num, (o, n)) -> dget (extents s) num = Some (eo, el) ->
      let r := server_read file o n k fail in
      env_stepped s (LDeliver i k fail)
        (mkState (match r with RData b => dset (data s) eo b | _ => data s end) (ddel (extents s) num)
                 (if is_nil (ddel (extents s) num) then true else pdone s) (prefetching s)
                 (match r with RFail => true | _ => saved s end) (realpos s) (pos s) (rbuffer s)
                 (unsent s) (pending s) (remove_nth i (inflight s)) (nextnum s)).

Lemma env_step_inv s l s' : env_step file s l = Some s' -> env_stepped s l s'.
Proof.
  destruct l as [i|i|i k fail]; cbn [env_step].
  - destruct (nth_error (unsent s) i) as [[[o n] cap]|] eqn:En; [|discriminate].
    destruct ((cap =? 0) || (zlen (extents s) <? cap)); [|discriminate].
    intros [= <-]. exact (stepped_send s i o n cap En).
  - destruct (nth_error (pending s) i) as [[num c]|] eqn:En; [|discriminate].
    intros [= <-]. exact (stepped_reg s i num c En).
  - destruct (nth_error (inflight s) i) as [[num [o n]]|] eqn:En; [|discriminate].
    unfold async_response. destruct (dget (extents s) num) as [[eo el]|] eqn:Ee; [|discriminate].
    intros [= <-]. exact (stepped_deliver s i k fail num o n eo el En Ee).
Qed.

Lemma env_step_wire s l s' : wire_ok s -> env_step file s l = Some s' -> wire_ok s'.
Proof.
  intros Hw Hs. destruct (env_step_inv _ _ _ Hs) as [i o n cap En|i num c En|i k fail num o n eo el _ _ r].
  - (* send: the new number is above all others *)
    destruct (w_unsent s Hw _ _ _ (nth_error_In _ _ En)) as [Ho Hn].
    constructor; cbn.
    + intros num c H. apply in_snoc in H as [H|[= -> _]]; [pose proof (w_inf_lt s Hw _ _ H)|]; lia.
    + intros num c H. pose proof (w_ext_lt s Hw _ _ H). lia.
    + intros num c H. apply in_snoc in H as [H|[= -> _]]; [pose proof (w_pend_lt s Hw _ _ H)|]; lia.
    + intros num c c' H1 H2. apply in_snoc in H1 as [H1|H1]; apply in_snoc in H2 as [H2|H2].
      * exact (w_pend s Hw _ _ _ H1 H2).
      * injection H2 as -> _. pose proof (w_pend_lt s Hw _ _ H1). lia.
      * injection H1 as -> _. pose proof (w_inf_lt s Hw _ _ H2). lia.
      * congruence.
    + intros num c c' H1 H2. apply in_snoc in H2 as [H2|[= -> _]].
      * exact (w_ext s Hw _ _ _ H1 H2).
      * pose proof (w_ext_lt s Hw _ _ H1). lia.
    + intros num o' n' H. apply in_snoc in H as [H|[= _ -> ->]]; [exact (w_pos s Hw _ _ _ H)|lia].
    + intros o' n' cap' H. apply remove_nth_in in H. exact (w_unsent s Hw _ _ _ H).
  - (* register: the extent is the pending one *)
    apply nth_error_In in En. constructor; cbn.
    + exact (w_inf_lt s Hw).
    + intros x c'. rewrite dget_set. destruct (x =? num) eqn:E; [|apply (w_ext_lt s Hw)].
      intros _. pose proof (w_pend_lt s Hw _ _ En). lia.
    + intros x c' H. apply remove_nth_in in H. exact (w_pend_lt s Hw _ _ H).
    + intros x c1 c2 H1 H2. apply remove_nth_in in H1. exact (w_pend s Hw _ _ _ H1 H2).
    + intros x c1 c2. rewrite dget_set. destruct (x =? num) eqn:E; [|apply (w_ext s Hw)].
      intros [= <-] H2. assert (x = num) by lia. subst x. exact (w_pend s Hw _ _ _ En H2).
    + exact (w_pos s Hw).
    + exact (w_unsent s Hw).
  - (* deliver: entries go *)
    apply (wire_mono s); cbn; auto using incl_refl.
    + intros x H. exact (remove_nth_in _ _ _ H).
    + intros x c. rewrite dget_del. now destruct (x =? num).
    + lia.
Qed.

Lemma live_env s l s' : wire_ok s -> live_ok s -> env_step file s l = Some s' -> live_ok s'.
Proof.
  intros Hw [L1 L2 L3 L4 L5 L6 L7] Hs.
  destruct (env_step_inv _ _ _ Hs) as [i o n cap En|i num c En|i k fail num o n eo el En Ee r].
  - (* the new number occurs nowhere yet *)
    assert (Hfresh : forall d : dict (Z * Z),
               (forall num c, In (num, c) d -> num < nextnum s) -> ~ In (nextnum s) (keys d)).
    { intros d Hd Hin. apply in_map_iff in Hin as ([x c] & Hx & Hin). cbn in Hx. subst x.
      specialize (Hd _ _ Hin). lia. }
    assert (Hfresh_ext : ~ In (nextnum s) (keys (extents s))).
    { rewrite dget_keys. destruct (dget (extents s) (nextnum s)) as [c|] eqn:E; [|congruence].
      pose proof (w_ext_lt s Hw _ _ E). lia. }
    constructor; cbn.
    + intros x H. apply keys_snoc. left. auto.
    + intros x H. rewrite keys_snoc. apply keys_snoc in H as [H| ->]; [|auto].
      destruct (L2 _ H). auto.
    + intros x H. rewrite keys_snoc. apply keys_snoc in H as [H| ->]; [|auto].
      destruct (L3 _ H); auto.
    + unfold keys. rewrite map_app. apply NoDup_snoc; [exact L4|exact (Hfresh _ (w_inf_lt s Hw))].
    + unfold keys. rewrite map_app. apply NoDup_snoc; [exact L5|exact (Hfresh _ (w_pend_lt s Hw))].
    + intros _ _. right. left. destruct (pending s); discriminate.
    + intros o' n' cap' H. apply remove_nth_in in H. exact (L7 _ _ _ H).
  - destruct (keys_remove_nth _ _ _ _ En L5) as [Hnd Hin].
    assert (Hnum : In num (keys (pending s))) by exact (in_map fst _ _ (nth_error_In _ _ En)).
    constructor; cbn.
    + intros x H. apply keys_dset in H as [->|H]; [apply (L2 _ Hnum)|auto].
    + intros x H. apply Hin in H as [Hne H]. destruct (L2 _ H) as [P Q].
      split; [exact P|]. rewrite keys_dset. tauto.
    + intros x H. rewrite keys_dset, Hin. destruct (Z.eq_dec x num); [auto|]. destruct (L3 _ H); auto.
    + exact L4.
    + exact Hnd.
    + intros _ _. right. right. destruct (extents s) as [|[k' v'] t]; cbn; [discriminate|].
      now destruct (k' =? num).
    + exact L7.
  - destruct (keys_remove_nth _ _ _ _ En L4) as [Hnd Hin].
    assert (Hreg : In num (keys (extents s))) by (apply dget_keys; congruence).
    constructor; cbn.
    + intros x H. apply keys_ddel in H as [Hne H]. apply Hin. auto.
    + intros x H. destruct (L2 _ H) as [P Q]. rewrite Hin, keys_ddel.
      split; [split; [intros ->; contradiction|exact P]|tauto].
    + intros x H. apply Hin in H as [Hne H]. rewrite keys_ddel. destruct (L3 _ H); auto.
    + exact Hnd.
    + exact L5.
    + intros _. destruct (ddel (extents s) num); [discriminate|]. intros _. right. right. discriminate.
    + exact L7.
Qed.

Lemma env_step_measure s l s' : env_step file s l = Some s' -> (measure s' < measure s)%nat.
Proof.
  intros Hs. destruct (env_step_inv _ _ _ Hs) as [i o n cap En|i num c En|i k fail num o n eo el En _ r];
    unfold measure; cbn; rewrite ?app_length; cbn;
    pose proof (Add_length (remove_nth_Add _ _ _ En)); lia.
Qed.

Lemma env_step_good s l s' :
  good file s -> lab_ok l -> env_step file s l = Some s' -> keeps file s s' /\ same_file s s'.
Proof.
  intros Hg Hl Hs. pose proof Hg as ((Hb & Hw) & Hrb & Hsv).
  assert (H : buf_ok file (data s') /\ same_file s s' /\ saved s' = false).
  { destruct (env_step_inv _ _ _ Hs) as [i o n cap En|i num c En|i k fail num o n eo el En Ee r].
    1-2: repeat split; assumption.
    (* the extent registered for the number is the one requested, so the data belongs at its offset *)
    destruct Hl as [Hk ->]. apply nth_error_In in En.
    pose proof (w_ext s Hw _ _ _ Ee En) as [= -> ->].
    destruct (w_pos s Hw _ _ _ En) as [Ho Hn]. pose proof (server_read_ok file o n k Ho Hn Hk) as Hr.
    fold r in Hr. destruct r as [b| |]; [| |contradiction]; repeat split; cbn; try assumption.
    apply buf_ok_set; [exact Hb|apply Hr]. }
  destruct H as (Hb' & Hsf & Hsv'). split; [|exact Hsf]. split.
  - split; [split; [exact Hb'|exact (env_step_wire _ _ _ Hw Hs)]|].
    split; [exact (rb_ok_same _ _ _ Hsf Hrb)|exact Hsv'].
  - intros Hlv. exact (live_env _ _ _ Hw Hlv Hs).
Qed.

Lemma run_env_good sched : forall s,
  good file s -> Forall lab_ok sched ->
  keeps file s (run_env file sched s) /\ same_file s (run_env file sched s).
Proof.
  induction sched as [|l r IH]; intros s Hg Hl; cbn [run_env].
  - split; [now apply keeps_refl|apply same_file_refl].
  - apply Forall_cons_iff in Hl as [Hl1 Hl2].
    destruct (env_step file s l) as [s'|] eqn:E; [|now apply IH].
    destruct (env_step_good _ _ _ Hg Hl1 E) as [K S]. destruct (IH s' (proj1 K) Hl2) as [K' S'].
    split; [exact (keeps_trans _ _ _ _ K K')|exact (same_file_trans _ _ _ S S')].
Qed.

Lemma wait_loop_ok sched : forall s s1 w,
  good file s -> Forall lab_ok sched -> wait_loop file sched s = (s1, w) ->
  keeps file s s1 /\ same_file s s1 /\ w <> WRaise /\
  (forall idx, w = WFound idx -> data_in_buffers (data s1) (realpos s1) = Some idx).
Proof.
  induction sched as [|l r IH]; intros s s1 w Hg Hl; cbn [wait_loop];
    (destruct (data_in_buffers (data s) (realpos s)) as [idx|] eqn:Ed; [|destruct (pdone s)]).
  (* the loop stops where it stands *)
  1-5: intros [= <- <-]; split; [now apply keeps_refl|]; split; [apply same_file_refl|]; split; congruence.
  apply Forall_cons_iff in Hl as [Hl1 Hl2].
  destruct (env_step file s l) as [s'|] eqn:E; [|now apply IH].
  destruct (env_step_good _ _ _ Hg Hl1 E) as [K S].
  replace (saved s') with false by (symmetry; apply K). rewrite andb_false_r. intros H.
  destruct (IH _ _ _ (proj1 K) Hl2 H) as (K' & S' & Hw).
  split; [exact (keeps_trans _ _ _ _ K K')|]. split; [exact (same_file_trans _ _ _ S S')|exact Hw].
Qed.

Lemma read_prefetch_ok sched s size s1 r :
  good file s -> Forall lab_ok sched -> 1 <= size ->
  read_prefetch file sched s size = (s1, r) ->
  keeps file s s1 /\ same_file s s1 /\
  match r with
  | RdData d => d <> [] /\ valid file (realpos s) d /\ zlen d <= size
  | RdNone | RdBlocked => True
  | RdEof | RdRaise => False
  end.
Proof.
  intros Hg Hl Hsz. unfold read_prefetch.
  destruct (wait_loop file sched s) as [s0 w] eqn:Ew.
  destruct (wait_loop_ok _ _ _ _ Hg Hl Ew) as (K & S & Hnr & Hf).
  pose proof K as (Hg0 & _). pose proof Hg0 as ((Hb & _) & Hrb & Hsv).
  destruct w as [offset| | |]; [| |congruence|].
  - specialize (Hf _ eq_refl). apply data_in_buffers_spec in Hf as (buf & Hget & Hle & Hlt).
    rewrite Hget. intros [= <- <-].
    destruct (valid_suffix file offset buf (realpos s0) (buf_ok_get _ _ _ _ Hb Hget)) as [Hv2 Hlen2]; [lia|].
    set (bo := realpos s0 - offset) in *. set (p2 := if 0 <? bo then zdrop bo buf else buf) in *.
    destruct (valid_prefix file (realpos s0) p2 size Hv2 Hsz) as (Hne & Hv3 & Hlen3 & Hrest); [lia|].
    split; [|split; [exact S|rewrite <- (proj1 S); auto]].
    apply (keeps_trans _ _ _ _ K). apply reader_step; try assumption; [apply env_eq_mk; [lia|auto]|]. cbn.
    assert (Hb2 : buf_ok file (if 0 <? bo then dset (ddel (data s0) offset) offset (ztake bo buf)
                               else ddel (data s0) offset)).
    { destruct (0 <? bo); [apply buf_ok_set|]; eauto using buf_ok_del, valid_take, buf_ok_get. }
    destruct (size <? zlen p2) eqn:E; [apply buf_ok_set; [exact Hb2|apply Hrest; lia]|exact Hb2].
  - intros [= <- <-]. split; [|auto].
    apply (keeps_trans _ _ _ _ K). apply reader_step; try assumption. apply env_eq_mk; [lia|discriminate].
  - intros [= <- <-]. auto.
Qed.

Lemma sread_ok maxreq o s size0 s1 r :
  good file s -> orc_ok o -> 1 <= size0 -> 1 <= maxreq ->
  sread file maxreq o s size0 = (s1, r) ->
  keeps file s s1 /\ same_file s s1 /\
  match r with
  | RdData d => d <> [] /\ valid file (realpos s) d /\ zlen d <= Z.min size0 maxreq
  | RdEof => zlen file <= realpos s
  | RdBlocked => True
  | RdNone | RdRaise => False
  end.
Proof.
  intros Hg (Hw & Hs & Hk & Hf) Hsz Hm. unfold sread.
  assert (Hsize : 1 <= Z.min size0 maxreq) by lia.
  pose proof (rb_ok_realpos file s (proj1 (proj2 Hg))) as Hrp.
  destruct (if prefetching s then read_prefetch file (o_wait o) s (Z.min size0 maxreq) else (s, RdNone))
    as [s0 r0] eqn:E.
  assert (H0 : keeps file s s0 /\ same_file s s0 /\
               match r0 with
               | RdData d => d <> [] /\ valid file (realpos s) d /\ zlen d <= Z.min size0 maxreq
               | RdNone | RdBlocked => True
               | RdEof | RdRaise => False
               end).
  { destruct (prefetching s).
    - exact (read_prefetch_ok _ _ _ _ _ Hg Hw Hsize E).
    - injection E as <- <-. split; [now apply keeps_refl|]. split; [apply same_file_refl|exact I]. }
  destruct H0 as (K0 & S0 & Hr0).
  destruct r0 as [d| | | |]; try contradiction.
  - intros [= <- <-]. auto.
  - (* nothing buffered and nothing to come: a synchronous request, under the next number *)
    assert (Kb : keeps file s0 (bump s0)).
    { apply reader_step; try apply K0. apply env_eq_mk; [lia|auto]. }
    destruct (run_env_good (o_sync o) (bump s0) (proj1 Kb) Hs) as [K2 S2].
    pose proof (keeps_trans _ _ _ _ K0 (keeps_trans _ _ _ _ Kb K2)) as K.
    pose proof (same_file_trans s s0 _ S0 S2) as S.
    rewrite (proj1 S), Hf.
    pose proof (server_read_ok file (realpos s) (Z.min size0 maxreq) (o_k o) Hrp Hsize Hk) as Hr.
    destruct (server_read file (realpos s) (Z.min size0 maxreq) (o_k o) false) as [d| |];
      intros [= <- <-]; auto.
  - intros [= <- <-]. auto.
Qed.

Lemma read_loop_ok maxreq bufsize orcs : forall s size s1 st,
  good file s -> Forall orc_ok orcs -> 1 <= maxreq ->
  read_loop file maxreq bufsize orcs s size = (s1, st) ->
  keeps file s s1 /\ pos s1 = pos s /\
  match st with
  | LDone => size <= zlen (rbuffer s1) \/ zlen file <= realpos s1
  | LRaise => False
  | LBlocked => True
  end.
Proof.
  induction orcs as [|o r IH]; intros s size s1 st Hg Ho Hm; cbn [read_loop];
    destruct (size <=? zlen (rbuffer s)) eqn:E.
  1-3: intros [= <- <-]; split; [now apply keeps_refl|]; split; [reflexivity|]; try exact I; left; lia.
  apply Forall_cons_iff in Ho as [Ho1 Ho2].
  set (rs := if 0 <? bufsize then Z.max bufsize (size - zlen (rbuffer s)) else size - zlen (rbuffer s)).
  assert (Hrs : 1 <= rs) by (unfold rs; destruct (0 <? bufsize); lia).
  destruct (sread file maxreq o s rs) as [s0 r0] eqn:Es.
  destruct (sread_ok _ _ _ _ _ _ Hg Ho1 Hrs Hm Es) as (K0 & (Hrp0 & Hps0 & Hrb0) & Hr).
  destruct r0 as [d| | | |]; try contradiction.
  - (* the bytes read continue the read buffer *)
    destruct Hr as (Hne & Hvd & _). destruct d as [|x d']; [congruence|]. cbn [is_nil]. intros H.
    assert (K1 : keeps file s0 (set_file s0 (realpos s0 + zlen (x :: d')) (pos s0) (rbuffer s0 ++ x :: d'))).
    { destruct (proj1 K0) as (_ & (Hv & Hrp & Hps) & _).
      apply reader_step; try apply K0; [apply env_eq_mk; [lia|auto]|].
      unfold rb_ok. cbn [pos realpos rbuffer set_file]. rewrite zlen_app. split; [|lia].
      apply valid_app; [exact Hv|]. now rewrite <- Hrp, Hrp0. }
    destruct (IH _ _ _ _ (proj1 K1) Ho2 Hm H) as (K2 & Hp & Hst).
    split; [exact (keeps_trans _ _ _ _ K0 (keeps_trans _ _ _ _ K1 K2))|]. split; [|exact Hst].
    cbn in Hp. congruence.
  - intros [= <- <-]. split; [exact K0|]. split; [exact Hps0|]. right. lia.
  - intros [= <- <-]. auto.
Qed.

Lemma bf_read_ok maxreq bufsize orcs s size s1 out :
  good file s -> Forall orc_ok orcs -> 1 <= maxreq -> 0 <= size ->
  bf_read file maxreq bufsize orcs s size = (s1, out) ->
  keeps file s s1 /\
  (out = OBlocked \/
   (out = OData (slice file (pos s) size) /\ pos s1 = pos s + zlen (slice file (pos s) size))).
Proof.
  intros Hg Ho Hm Hsz. unfold bf_read.
  destruct (read_loop file maxreq bufsize orcs s size) as [s0 st] eqn:E.
  destruct (read_loop_ok _ _ _ _ _ _ _ Hg Ho Hm E) as (K0 & Hp & Hst).
  destruct st; [|contradiction|].
  - intros [= <- <-]. destruct (proj1 K0) as (_ & (Hv & Hrp & Hps) & _).
    assert (Et : ztake size (rbuffer s0) = slice file (pos s) size).
    { rewrite <- Hp. apply take_is_slice; auto. destruct Hst; [left|right]; lia. }
    split; [|right; rewrite Et; split; [reflexivity|cbn; lia]].
    apply (keeps_trans _ _ _ _ K0). apply reader_step; try apply K0; [apply env_eq_mk; [lia|auto]|].
    unfold rb_ok. cbn. pose proof (zlen_nonneg (ztake size (rbuffer s0))).
    split; [|split; [|lia]].
    + rewrite zlen_ztake by lia. now apply valid_drop.
    + rewrite zlen_ztake, zlen_zdrop by lia. lia.
  - intros [= <- <-]. auto.
Qed.

Lemma seek_ok s o : good file s -> 0 <= o -> keeps file s (seek s o).
Proof.
  intros Hg Ho. apply reader_step; try apply Hg; [apply env_eq_mk; [lia|auto]|].
  unfold rb_ok, zlen. cbn. split; [now left|lia].
Qed.

Lemma start_prefetch_ok s cs cap :
  good file s -> Forall (fun c => 0 <= fst c /\ 1 <= snd c) cs ->
  good file (start_prefetch s cs cap) /\ (0 <= cap -> live_ok s -> live_ok (start_prefetch s cs cap)).
Proof.
  intros Hg Hc. unfold start_prefetch. destruct cs as [|c r]; cbn [is_nil]; [auto|].
  assert (Hin : forall o n cap', In (o, n, cap') (map (fun c0 => (fst c0, snd c0, cap)) (c :: r)) ->
                                 (0 <= o /\ 1 <= n) /\ cap' = cap).
  { intros o n cap' H. apply in_map_iff in H as (x & [= <- <- <-] & Hx).
    split; [exact (proj1 (Forall_forall _ _) Hc _ Hx)|reflexivity]. }
  destruct Hg as ((Hb & [W1 W2 W3 W4 W5 W6 W7]) & Hrb & Hsv). split.
  - split; [split; [exact Hb|]|split; assumption]. constructor; cbn; auto.
    intros o n cap' H. apply in_app_or in H as [H|H]; [eauto|apply (Hin _ _ _ H)].
  - intros Hcap [L1 L2 L3 L4 L5 L6 L7]. constructor; cbn; auto.
    + intros _ _. left. destruct (unsent s); discriminate.
    + intros o n cap' H. apply in_app_or in H as [H|H]; [eauto|]. destruct (Hin _ _ _ H) as [_ ->]. exact Hcap.
Qed.

Lemma split_chunk_bounded fuel : forall maxreq o n,
  1 <= maxreq -> 0 <= o ->
  Forall (fun c => 0 <= fst c /\ 1 <= snd c <= maxreq) (split_chunk fuel maxreq o n).
Proof.
  induction fuel as [|f IH]; intros maxreq o n Hm Ho; cbn; [constructor|].
  destruct (n <=? 0) eqn:E; [constructor|].
  constructor; [cbn; lia|]. apply IH; lia.
Qed.

Lemma readv_plan_bounded maxreq d e : forall cs rc,
  1 <= maxreq -> Forall (fun c => 0 <= fst c) cs -> readv_plan maxreq d e cs = Some rc ->
  Forall (fun c => 0 <= fst c /\ 1 <= snd c <= maxreq) rc.
Proof.
  induction cs as [|[o n] r IH]; intros rc Hm Hc; cbn [readv_plan].
  - intros [= <-]. constructor.
  - apply Forall_cons_iff in Hc as [H1 H2]. cbn in H1.
    match goal with |- match ?X with _ => _ end = _ -> _ => destruct X as [[|]|] end; [| |discriminate].
    + now apply IH.
    + destruct (readv_plan maxreq d e r) as [rest|]; [|discriminate].
      intros [= <-]. apply Forall_app. split; [now apply split_chunk_bounded|now apply IH].
Qed.

Lemma prefetch_chunks_pos fuel : forall maxreq n fs,
  1 <= maxreq -> 0 <= n -> Forall (fun c => 0 <= fst c /\ 1 <= snd c) (prefetch_chunks fuel maxreq n fs).
Proof.
  induction fuel as [|f IH]; intros maxreq n fs Hm Hn; cbn; [constructor|].
  destruct (n <? fs) eqn:E; [|constructor]. constructor; [cbn; lia|apply IH; lia].
Qed.

Lemma readv_reads_ok maxreq bufsize : forall chunks orcss s s1 outs,
  good file s -> 1 <= maxreq ->
  Forall (fun c => 0 <= fst c /\ 0 <= snd c) chunks -> Forall (Forall orc_ok) orcss ->
  readv_reads file maxreq bufsize orcss s chunks = (s1, outs) ->
  keeps file s s1 /\
  Forall2 (fun c out => out = OData (slice file (fst c) (snd c)) \/ out = OBlocked) chunks outs.
Proof.
  induction chunks as [|[o n] r IH]; intros orcss s s1 outs Hg Hm Hc Ho; cbn [readv_reads].
  - intros [= <- <-]. split; [now apply keeps_refl|constructor].
  - apply Forall_cons_iff in Hc as [[Hc1 Hc1'] Hc2]. cbn in Hc1, Hc1'.
    pose proof (seek_ok s o Hg Hc1) as K1.
    assert (Horcs : Forall orc_ok (match orcss with x :: _ => x | [] => [] end) /\
                    Forall (Forall orc_ok) (tl orcss)) by (destruct Ho; cbn; auto).
    destruct Horcs as [Horcs Htl].
    destruct (bf_read file maxreq bufsize _ (seek s o) n) as [s2 out] eqn:Eb.
    destruct (bf_read_ok _ _ _ _ _ _ _ (proj1 K1) Horcs Hm Hc1' Eb) as (K2 & Hout).
    destruct (readv_reads file maxreq bufsize (tl orcss) s2 r) as [s3 outs'] eqn:Er.
    intros [= <- <-]. destruct (IH _ _ _ _ (proj1 K2) Hm Hc2 Htl Er) as (K3 & F).
    split; [exact (keeps_trans _ _ _ _ K1 (keeps_trans _ _ _ _ K2 K3))|].
    constructor; [|exact F]. destruct Hout as [->|[-> _]]; [now right|now left].
Qed.

Lemma readv_ok maxreq bufsize orcss s chunks cap s1 outs :
  good file s -> Forall (Forall orc_ok) orcss -> 1 <= maxreq ->
  Forall (fun c => 0 <= fst c /\ 0 <= snd c) chunks ->
  readv file maxreq bufsize orcss s chunks cap = Some (s1, outs) ->
  good file s1 /\ (0 <= cap -> live_ok s -> live_ok s1) /\
  Forall2 (fun c out => out = OData (slice file (fst c) (snd c)) \/ out = OBlocked) chunks outs.
Proof.
  intros Hg Ho Hm Hc. unfold readv.
  destruct (readv_plan maxreq (data s) (extents s) chunks) as [rc|] eqn:Ep; [|discriminate].
  intros [= E].
  assert (Hrc : Forall (fun c => 0 <= fst c /\ 1 <= snd c) rc).
  { eapply Forall_impl; [|eapply readv_plan_bounded; [exact Hm| |exact Ep]].
    - cbn. tauto.
    - eapply Forall_impl; [|exact Hc]. cbn. tauto. }
  destruct (start_prefetch_ok s rc cap Hg Hrc) as [Hg1 Hl1].
  destruct (readv_reads_ok _ _ _ _ _ _ _ Hg1 Hm Hc Ho E) as ((Hg2 & Hl2) & F). auto.
Qed.

Lemma do_action_good s a s' :
  good file s -> action_ok a -> do_action file s a = Some s' ->
  good file s' /\ (action_caps_ok a -> live_ok s -> live_ok s').
Proof.
  intros Hg Ha.
  destruct a as [l|maxreq bufsize orcs size|o|maxreq fs cap|maxreq bufsize orcss chunks cap]; cbn in Ha |- *.
  - intros H. destruct (env_step_good _ _ _ Hg Ha H) as [[G L] _]. auto.
  - destruct Ha as (Ho & Hm & Hs).
    destruct (bf_read file maxreq bufsize orcs s size) as [s1 out] eqn:E. intros [= <-].
    destruct (bf_read_ok _ _ _ _ _ _ _ Hg Ho Hm Hs E) as [[G L] _]. auto.
  - intros [= <-]. destruct (seek_ok s o Hg Ha) as [G L]. auto.
  - intros [= <-]. apply start_prefetch_ok; [exact Hg|]. apply prefetch_chunks_pos; [exact Ha|].
    exact (rb_ok_realpos file s (proj1 (proj2 Hg))).
  - destruct Ha as (Ho & Hm & Hc).
    destruct (readv file maxreq bufsize orcss s chunks cap) as [[s1 outs]|] eqn:E; [|discriminate].
    intros [= <-]. destruct (readv_ok _ _ _ _ _ _ _ _ Hg Ho Hm Hc E) as (G & L & _). auto.
Qed.

Lemma do_actions_good acts : forall s s',
  good file s -> Forall action_ok acts -> do_actions file s acts = Some s' ->
  good file s' /\ (Forall action_caps_ok acts -> live_ok s -> live_ok s').
Proof.
  induction acts as [|a r IH]; intros s s' Hg Ha; cbn [do_actions].
  - intros [= <-]. auto.
  - apply Forall_cons_iff in Ha as [Ha1 Ha2].
    destruct (do_action file s a) as [s0|] eqn:E; [|discriminate]. intros H.
    destruct (do_action_good _ _ _ Hg Ha1 E) as [G0 L0]. destruct (IH _ _ G0 Ha2 H) as [G L].
    split; [exact G|]. intros Hc Hl. apply Forall_cons_iff in Hc as [Hc1 Hc2]. auto.
Qed.

End Steps.

Lemma wait_done_never_blocks file sched s : pdone s = true -> snd (wait_loop file sched s) <> WBlocked.
Proof.
  intros H. destruct sched; cbn; destruct (data_in_buffers (data s) (realpos s)); rewrite ?H; cbn; discriminate.
Qed.

Lemma env_idle file s l : unsent s = [] -> pending s = [] -> inflight s = [] -> env_step file s l = None.
Proof. intros A B C. destruct l as [i|i|i k f]; cbn; rewrite ?A, ?B, ?C; destruct i; reflexivity. Qed.

(* some step of the environment is always enabled while anything is outstanding: the oldest in-flight
   reply can be delivered (its extent is registered) or its registration can happen; otherwise a
   registration or a send is enabled (a capped thread is never starved: extents drain) *)
Lemma progress file s k :
  inv file s -> live_ok s -> work s ->
  exists l s', env_step file s l = Some s' /\
               (l = LDeliver 0 k false \/ (exists i, l = LReg i) \/ l = LSend 0).
Proof.
  intros _ Hl Hwk. destruct (inflight s) as [|[num [o n]] t] eqn:Ei.
  - destruct (pending s) as [|[pn pc] pt] eqn:Ep.
    + destruct Hwk as [Hu|[Hp|Hf]]; try congruence.
      destruct (unsent s) as [|[[o n] cap] ut] eqn:Eu; [congruence|].
      assert (He : extents s = []).
      { destruct (extents s) as [|[x c] et] eqn:Ee; [reflexivity|].
        pose proof (l_ext_inf s Hl x) as H. rewrite Ee, Ei in H. exfalso. apply H. now left. }
      pose proof (l_cap s Hl o n cap) as Hc. rewrite Eu in Hc. specialize (Hc (or_introl eq_refl)).
      eexists (LSend 0), _. split; [|auto]. cbn. rewrite Eu. cbn. rewrite He. cbn.
      destruct (cap =? 0) eqn:E0; cbn; [reflexivity|].
      destruct (0 <? cap) eqn:E1; [reflexivity|lia].
    + eexists (LReg 0), _. split; [|right; left; now exists 0%nat]. cbn. rewrite Ep. reflexivity.
  - pose proof (l_inf_cov s Hl num) as Hc. rewrite Ei in Hc. specialize (Hc (or_introl eq_refl)).
    destruct Hc as [Hc|Hc].
    + apply dget_keys in Hc. destruct (dget (extents s) num) as [[eo el]|] eqn:Ee; [|congruence].
      eexists (LDeliver 0 k false), _. split; [|now left]. cbn. rewrite Ei. cbn.
      unfold async_response. rewrite Ee. reflexivity.
    + apply in_map_iff in Hc as ([x c] & Hx & Hin). apply In_nth_error in Hin as [i Hi'].
      eexists (LReg i), _. split; [|right; left; now exists i]. cbn. rewrite Hi'. reflexivity.
Qed.

Lemma quiescent_exits file sched s :
  live_ok s -> prefetching s = true -> ~ work s -> snd (wait_loop file sched s) <> WBlocked.
Proof.
  intros Hl Hp Hnw. destruct (pdone s) eqn:Ed; [now apply wait_done_never_blocks|].
  exfalso. apply Hnw. destruct (l_done s Hl Hp Ed) as [H|[H|H]]; [now left|right; now left|].
  right. right. destruct (extents s) as [|[x c] t] eqn:Ee; [congruence|].
  pose proof (l_ext_inf s Hl x) as Hin. rewrite Ee in Hin. specialize (Hin (or_introl eq_refl)).
  destruct (inflight s); [contradiction|discriminate].
Qed.

Lemma deadlock_free file s :
  good file s -> live_ok s ->
  (work s -> forall k, 1 <= k ->
     exists l s', env_step file s l = Some s' /\ lab_ok l /\ (measure s' < measure s)%nat /\
                  good file s' /\ live_ok s') /\
  (forall l s', env_step file s l = Some s' -> (measure s' < measure s)%nat) /\
  (prefetching s = true -> ~ work s -> forall sched, snd (wait_loop file sched s) <> WBlocked).
Proof.
  intros Hg Hv. split; [|split].
  - intros Hw k Hk. destruct (progress file s k (proj1 Hg) Hv Hw) as (l & s' & Hs & Hl).
    assert (Hlab : lab_ok l) by (destruct Hl as [->|[[i ->]| ->]]; cbn; auto).
    destruct (env_step_good file s l s' Hg Hlab Hs) as [[G L] _].
    exists l, s'. split; [exact Hs|]. split; [exact Hlab|]. split; [exact (env_step_measure _ _ _ _ Hs)|auto].
  - intros l s'. apply env_step_measure.
  - intros Hp Hnw sched. now apply quiescent_exits.
Qed.

Lemma terminates file acts n s :
  Forall action_ok acts -> Forall action_caps_ok acts ->
  do_actions file (init_state n) acts = Some s ->
  (work s -> forall k, 1 <= k ->
     exists l s', env_step file s l = Some s' /\ lab_ok l /\ (measure s' < measure s)%nat /\
                  good file s' /\ live_ok s') /\
  (forall l s', env_step file s l = Some s' -> (measure s' < measure s)%nat) /\
  (prefetching s = true -> ~ work s -> forall sched, snd (wait_loop file sched s) <> WBlocked).
Proof.
  intros Ha Hc Hr.
  destruct (do_actions_good file acts _ _ (good_init file n) Ha Hr) as [Hg Hv].
  exact (deadlock_free file s Hg (Hv Hc (live_init n))).
Qed.

(* the code before the repair: an EOF status keeps its extent and _prefetch_done stays false; with the
   wire idle the reader then waits forever, whatever the environment does *)
Definition stuck_v0 : state := mkState [] [(1, (600, 10))] false true true 0 0 [] [] [] [] 2.
