(* C06 -- lemmas about Model/C06.v: Diffie-Hellman agreement and the fast evaluator, injectivity of
   the exchange-hash input (through C39's encode_injective), _set_K_H and the session-id latch,
   _verify_key, and what the two handlers do in an honest run. *)
From Coq Require Import ZArith List Bool Lia Zpow_facts.
From PV Require Import Bytes C39 C39_proofs C06_gen C06.
Import ListNotations.
Open Scope Z_scope.

Lemma dh_agree g x y p :
  0 < p -> 0 <= x -> 0 <= y -> (g ^ x mod p) ^ y mod p = (g ^ y mod p) ^ x mod p.
Proof.
  intros Hp Hx Hy. rewrite <- !Zpower_mod by lia. rewrite <- !Z.pow_mul_r by lia.
  f_equal. f_equal. lia.
Qed.

Lemma modpow_pos_correct a n p : p <> 0 -> modpow_pos a n p = a ^ Zpos n mod p.
Proof.
  intros Hp. induction n as [n IH | n IH |].
  - cbn [modpow_pos]. rewrite IH. rewrite Pos2Z.inj_xI.
    replace (2 * Z.pos n + 1) with (Z.pos n + Z.pos n + 1) by lia.
    rewrite !Z.pow_add_r by lia. rewrite Z.pow_1_r.
    rewrite (Z.mul_mod (a ^ Z.pos n * a ^ Z.pos n) a p) by lia.
    rewrite (Z.mul_mod (a ^ Z.pos n) (a ^ Z.pos n) p) by lia. reflexivity.
  - cbn [modpow_pos]. rewrite IH. rewrite Pos2Z.inj_xO.
    replace (2 * Z.pos n) with (Z.pos n + Z.pos n) by lia.
    rewrite Z.pow_add_r by lia. rewrite (Z.mul_mod (a ^ Z.pos n) (a ^ Z.pos n) p) by lia. reflexivity.
  - cbn [modpow_pos]. now rewrite Z.pow_1_r.
Qed.

Lemma modpow_correct a n p : p <> 0 -> modpow a n p = a ^ n mod p.
Proof.
  intros Hp. destruct n as [|n|n]; cbn [modpow].
  - now rewrite Z.pow_0_r.
  - now apply modpow_pos_correct.
  - rewrite Z.pow_neg_r by lia. now rewrite Z.mod_0_l.
Qed.

Lemma run_dh_agree g p x y e f k1 k2 :
  0 < p -> 0 <= x -> 0 <= y -> run_dh (g, p, x, y) = [e; f; k1; k2] ->
  e = g ^ x mod p /\ f = g ^ y mod p /\ k1 = f ^ x mod p /\ k2 = e ^ y mod p /\ k1 = k2.
Proof.
  intros Hp Hx Hy H. unfold run_dh in H. rewrite !modpow_correct in H by lia.
  injection H as <- <- <- <-. repeat split; try reflexivity. symmetry. now apply dh_agree.
Qed.

Lemma layout_same f : layout f Client = layout f Server.
Proof. destruct f; reflexivity. Qed.

Lemma reply_wire_same f : reply_sent f = reply_read f.
Proof. destruct f; reflexivity. Qed.

Lemma same_H f t : exchange_hash_input f Client t = exchange_hash_input f Server t.
Proof. unfold exchange_hash_input, hash_fields. now rewrite layout_same. Qed.

Lemma t_wf_same f t : t_wf f Client t = t_wf f Server t.
Proof. unfold t_wf, hash_fields. now rewrite layout_same. Qed.

(* the kinds hashed depend on the layout only, so C39's encode_injective applies *)
Lemma kinds_indep f r t1 t2 :
  t_old t1 = t_old t2 -> map kind_of (hash_fields f r t1) = map kind_of (hash_fields f r t2).
Proof.
  intros E. unfold hash_fields. rewrite E, !map_map. apply map_ext. intros e. destruct e; reflexivity.
Qed.

Lemma hash_input_injective f r t1 t2 bs :
  t_old t1 = t_old t2 -> t_wf f r t1 = true -> t_wf f r t2 = true ->
  exchange_hash_input f r t1 = Ok bs -> exchange_hash_input f r t2 = Ok bs ->
  hash_fields f r t1 = hash_fields f r t2.
Proof.
  intros E W1 W2 H1 H2. eapply encode_injective; eauto using kinds_indep.
Qed.

Lemma fields_eq_slots f r t1 t2 :
  t_old t1 = t_old t2 -> hash_fields f r t1 = hash_fields f r t2 ->
  forall g e, In (g, e) (layout f r) -> guard_on (t_old t1) g = true -> entry_field t1 e = entry_field t2 e.
Proof.
  intros E H g e Hin Hg. unfold hash_fields in H. rewrite <- E in H.
  apply (ext_in_map H). unfold active.
  change e with (snd (g, e)). apply in_map. apply filter_In. split; assumption.
Qed.

Lemma layout_has_common f r :
  In (GAlways, EStr SVC) (layout f r) /\ In (GAlways, EStr SVS) (layout f r) /\
  In (GAlways, EStr SIC) (layout f r) /\ In (GAlways, EStr SIS) (layout f r) /\
  In (GAlways, EStr SKS) (layout f r) /\ In (GAlways, EMpint SK) (layout f r).
Proof. destruct f, r; repeat split; cbn; auto 20. Qed.

Lemma layout_has_pub f r :
  In (GAlways, fst (pub_entries f)) (layout f r) /\ In (GAlways, snd (pub_entries f)) (layout f r).
Proof. destruct f, r; repeat split; cbn; auto 20. Qed.

Lemma layout_gex_params r :
  In (GAlways, EU32 SN) (layout FGex r) /\ In (GAlways, EMpint SP) (layout FGex r) /\
  In (GAlways, EMpint SG) (layout FGex r) /\ In (GNotOld, EU32 SMin) (layout FGex r) /\
  In (GNotOld, EU32 SMax) (layout FGex r).
Proof. destruct r; repeat split; cbn; auto 20. Qed.

Lemma fields_eq_reply f r t1 t2 :
  t_old t1 = t_old t2 -> hash_fields f r t1 = hash_fields f r t2 ->
  t_vc t1 = t_vc t2 /\ t_vs t1 = t_vs t2 /\ t_ic t1 = t_ic t2 /\ t_is t1 = t_is t2 /\
  t_ks t1 = t_ks t2 /\ t_k t1 = t_k t2 /\
  entry_field t1 (fst (pub_entries f)) = entry_field t2 (fst (pub_entries f)) /\
  entry_field t1 (snd (pub_entries f)) = entry_field t2 (snd (pub_entries f)).
Proof.
  intros E H.
  assert (S : forall e, In (GAlways, e) (layout f r) -> entry_field t1 e = entry_field t2 e)
    by (intros e Hin; exact (fields_eq_slots f r t1 t2 E H GAlways e Hin eq_refl)).
  destruct (layout_has_common f r) as (A1 & A2 & A3 & A4 & A5 & A6).
  destruct (layout_has_pub f r) as (B1 & B2).
  apply S in A1, A2, A3, A4, A5, A6. cbn [entry_field sget iget] in *.
  repeat split; try congruence; apply S; assumption.
Qed.

Lemma setkh_K st k h : s_K (set_K_H st k h) = Some (PInt k).
Proof. destruct st as [a b [c|] d]; reflexivity. Qed.
Lemma setkh_H st k h : s_H (set_K_H st k h) = Some (PBytes h).
Proof. destruct st as [a b [c|] d]; reflexivity. Qed.
Lemma setkh_sid st k h :
  s_sid (set_K_H st k h) = match s_sid st with Some v => Some v | None => Some (PBytes h) end.
Proof. destruct st as [a b [c|] d]; reflexivity. Qed.
Lemma setkh_hostkey st k h : s_hostkey (set_K_H st k h) = s_hostkey st.
Proof. destruct st as [a b [c|] d]; reflexivity. Qed.

Lemma sid_events st l :
  s_sid (run_events st l) =
  match s_sid st with Some v => Some v | None => option_map PBytes (first_H l) end.
Proof.
  revert st. induction l as [|e l IH]; intros st.
  - cbn. now destruct (s_sid st).
  - unfold run_events in *. cbn [fold_left]. rewrite IH. destruct e as [k h|]; cbn [step first_H].
    + rewrite setkh_sid. destruct (s_sid st); reflexivity.
    + cbn. destruct (s_sid st); reflexivity.
Qed.

Section Sym.
  Variable hash : list Z -> list Z.
  Variable sign : Z -> list Z -> list Z.
  Variable verify : list Z -> list Z -> list Z -> bool.
  Variable sig_alg_ok : list Z -> bool.
  Variable sig_canonical : list Z -> bool.
  Variable pubblob : Z -> list Z.
  Variable ec_pub : family -> Z -> list Z.
  Variable ec_dh : family -> Z -> list Z -> Z.

  (* _verify_key with the generated switches put in, once H is set *)
  Lemma verify_key_spec st hk sg d :
    s_H st = Some (PBytes d) ->
    verify_key verify sig_alg_ok sig_canonical st hk sg =
    if negb (sig_alg_ok sg) || negb (sig_canonical sg) then Raise SSHExc
    else if verify hk d sg then Ok (mkS (s_K st) (s_H st) (s_sid st) (Some hk)) else Raise SSHExc.
  Proof. intros HH. unfold verify_key, vsrc_val, verify_over. rewrite HH. reflexivity. Qed.

  Lemma verify_key_ok_inv st hk sg d st' :
    s_H st = Some (PBytes d) -> verify_key verify sig_alg_ok sig_canonical st hk sg = Ok st' ->
    verify hk d sg = true /\ s_hostkey st' = Some hk /\ s_K st' = s_K st /\ s_H st' = s_H st /\ s_sid st' = s_sid st.
  Proof.
    intros HH. rewrite (verify_key_spec st hk sg d HH).
    destruct (_ || _); [discriminate|]. destruct (verify hk d sg); [|discriminate].
    intros E. injection E as <-. cbn. auto.
  Qed.

  Lemma verify_key_ok st hk sg d :
    s_H st = Some (PBytes d) -> verify hk d sg = true -> sig_alg_ok sg = true -> sig_canonical sg = true ->
    verify_key verify sig_alg_ok sig_canonical st hk sg = Ok (mkS (s_K st) (s_H st) (s_sid st) (Some hk)).
  Proof. intros HH V A C. rewrite (verify_key_spec st hk sg d HH), V, A, C. reflexivity. Qed.

  Notation client_handle := (client_handle hash verify sig_alg_ok sig_canonical ec_dh).
  Notation server_handle := (server_handle hash sign pubblob ec_pub ec_dh).
  Notation client_transcript := (client_transcript ec_dh).
  Notation server_transcript := (server_transcript pubblob ec_pub ec_dh).

  Lemma client_accept_inv f x t0 st r st' :
    client_handle f x t0 st r = Ok st' ->
    exists bc, exchange_hash_input f Client (client_transcript f x t0 r) = Ok bc /\
               verify (r_ks r) (hash bc) (r_sig r) = true /\
               s_K st' = Some (PInt (t_k (client_transcript f x t0 r))) /\
               s_H st' = Some (PBytes (hash bc)) /\ s_hostkey st' = Some (r_ks r).
  Proof.
    unfold C06.client_handle. intros H.
    destruct (exchange_hash_input f Client (client_transcript f x t0 r)) as [bc|e] eqn:E; [|discriminate].
    cbn [bind] in H. exists bc. split; [reflexivity|].
    eapply verify_key_ok_inv in H; [|apply setkh_H].
    destruct H as (V & A & B & C & D). rewrite setkh_K in B. rewrite setkh_H in C. auto.
  Qed.

  Lemma server_handle_inv f y o t0 st st' r :
    server_handle f y o t0 st = Ok (st', r) ->
    exists bs, exchange_hash_input f Server (server_transcript f y o t0) = Ok bs /\
               r = mkR (t_ks (server_transcript f y o t0)) (t_f (server_transcript f y o t0))
                       (t_qs (server_transcript f y o t0)) (sign o (hash bs)) /\
               st' = set_K_H st (t_k (server_transcript f y o t0)) (hash bs).
  Proof.
    unfold C06.server_handle. intros H.
    destruct (exchange_hash_input f Server (server_transcript f y o t0)) as [bs|e]; [|discriminate].
    cbn [bind] in H. injection H as <- <-. eauto.
  Qed.

  Lemma client_transcript_ext f x t0 r r' :
    r_ks r' = r_ks r -> r_f r' = r_f r -> r_qs r' = r_qs r ->
    client_transcript f x t0 r' = client_transcript f x t0 r.
  Proof. intros A B C. unfold C06.client_transcript. now rewrite A, B, C. Qed.

  Lemma wire_pub_entry f x t0 r :
    wire_pub f r = entry_field (client_transcript f x t0 r) (snd (pub_entries f)).
  Proof. destruct f; reflexivity. Qed.

  Lemma server_pub_entry f ts sg :
    wire_pub f (mkR (t_ks ts) (t_f ts) (t_qs ts) sg) = entry_field ts (snd (pub_entries f)).
  Proof. destruct f; reflexivity. Qed.

  Lemma wire_pub_agree f x t0 r' ts sg :
    entry_field (client_transcript f x t0 r') (snd (pub_entries f)) = entry_field ts (snd (pub_entries f)) ->
    wire_pub f r' = wire_pub f (mkR (t_ks ts) (t_f ts) (t_qs ts) sg).
  Proof. intros P. rewrite (wire_pub_entry f x t0 r'), P, server_pub_entry. reflexivity. Qed.

  (* the premise about the library's curve arithmetic *)
  Hypothesis ec_comm : forall f x y, ec_dh f x (ec_pub f y) = ec_dh f y (ec_pub f x).

  (* both sides compute the same K when nothing was altered, so on the server's own reply the
     client rebuilds the server's transcript *)
  Lemma honest_transcript f x y o tb :
    0 < t_p tb -> 0 <= x -> 0 <= y ->
    let t0 := with_client_pub ec_pub f x tb in
    let ts := server_transcript f y o t0 in
    forall sg, client_transcript f x t0 (mkR (t_ks ts) (t_f ts) (t_qs ts) sg) = ts.
  Proof.
    intros Hp Hx Hy t0 ts sg. unfold C06.client_transcript. cbn [r_ks r_f r_qs].
    assert (SA : client_secret ec_dh f x (with_reply t0 (t_ks ts) (t_f ts) (t_qs ts) 0)
                 = server_secret ec_dh f y t0)
      by (destruct f; cbn; try apply ec_comm; symmetry; now apply dh_agree).
    rewrite SA. reflexivity.
  Qed.
End Sym.
