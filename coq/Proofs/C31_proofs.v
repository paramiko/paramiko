(* C31 — lemmas about the model of SFTPServer.set_file_attr: what a call leaves in each field of the
   file, by the flags of the request (fields), and the invariant ht_inv of the handle table, under
   which a live handle keeps naming the file it was opened on (handle_stable). *)
From Coq Require Import ZArith List Bool Lia.
From PV Require Import Bytes C31_gen C31.
Import ListNotations.
Open Scope Z_scope.

Lemma resize_length d n : 0 <= n -> Z.of_nat (length (resize d n)) = n.
Proof.
  intros Hn. unfold resize. rewrite app_length, firstn_length, repeat_length. lia.
Qed.

Lemma resize_shrink d n : 0 <= n <= Z.of_nat (length d) -> resize d n = firstn (Z.to_nat n) d.
Proof.
  intros Hn. unfold resize.
  replace (Z.to_nat n - length d)%nat with 0%nat by lia. cbn [repeat]. apply app_nil_r.
Qed.

Lemma resize_extend d n :
  Z.of_nat (length d) <= n -> resize d n = d ++ repeat 0 (Z.to_nat n - length d).
Proof.
  intros Hn. unfold resize. rewrite firstn_all2 by lia. reflexivity.
Qed.

Lemma resize_same d : resize d (Z.of_nat (length d)) = d.
Proof. rewrite resize_shrink by lia. rewrite Nat2Z.id. apply firstn_all. Qed.

Lemma resize_nth_kept d n i :
  (i < Z.to_nat n)%nat -> (i < length d)%nat -> nth i (resize d n) 0 = nth i d 0.
Proof.
  intros Hi Hd. unfold resize. rewrite app_nth1 by (rewrite firstn_length; lia).
  rewrite <- (firstn_skipn (Z.to_nat n) d) at 2.
  rewrite app_nth1 by (rewrite firstn_length; lia). reflexivity.
Qed.

Lemma resize_nth_pad d n i :
  (length d <= i)%nat -> nth i (resize d n) 0 = 0.
Proof.
  intros Hd. unfold resize. rewrite app_nth2 by (rewrite firstn_length; lia). apply nth_repeat.
Qed.

Lemma fields now f a :
  let f' := set_file_attr now f a in
  f_data f' = (if has a FLAG_SIZE then resize (f_data f) (a_size a) else f_data f) /\
  f_mode f' = (if has a FLAG_PERMISSIONS then Z.land (a_mode a) 4095 else f_mode f) /\
  f_uid f' = (if has a FLAG_UIDGID then a_uid a else f_uid f) /\
  f_gid f' = (if has a FLAG_UIDGID then a_gid a else f_gid f) /\
  f_atime f' = (if has a FLAG_AMTIME then a_atime a else f_atime f) /\
  f_mtime f' = (if has a FLAG_SIZE then now
                else if has a FLAG_AMTIME then a_mtime a else f_mtime f).
Proof.
  unfold set_file_attr, step_size, step_utime, step_chown, step_chmod.
  destruct (has a FLAG_SIZE), (has a FLAG_PERMISSIONS), (has a FLAG_UIDGID), (has a FLAG_AMTIME);
    repeat split.
Qed.

Lemma no_flags_identity now f a : a_flags a = 0 -> set_file_attr now f a = f.
Proof.
  intros H. unfold set_file_attr, step_size, step_utime, step_chown, step_chmod, has. rewrite H.
  reflexivity.
Qed.

Lemma flags_of_has size ids mode times :
  let a := mk_attrs size ids mode times in
  has a FLAG_SIZE = (match size with Some _ => true | None => false end) /\
  has a FLAG_UIDGID = (match ids with Some _ => true | None => false end) /\
  has a FLAG_PERMISSIONS = (match mode with Some _ => true | None => false end) /\
  has a FLAG_AMTIME = (match times with Some _ => true | None => false end).
Proof. destruct size, ids as [[? ?]|], mode, times as [[? ?]|]; cbv; repeat split. Qed.

Lemma sftp_op_os_op h f o : sftp_op h f o = os_op f o.
Proof. destruct h, o; reflexivity. Qed.

Lemma sftp_event_os_event f e : sftp_event f e = os_event f e.
Proof. destruct e as [h o|g]; [apply sftp_op_os_op | reflexivity]. Qed.

Lemma missing_never_ok now a :
  any_step a = true -> set_node_attr now NMissing a = (NMissing, SFTP_NO_SUCH_FILE).
Proof. intros H. cbn. now rewrite H. Qed.

Lemma dir_resize_fails now f a :
  has a FLAG_SIZE = true -> snd (set_node_attr now (NDir f) a) = SFTP_FAILURE.
Proof. intros H. cbn. now rewrite H. Qed.

Lemma ht_find_in l h v : ht_find l h = Some v -> In (h, v) l.
Proof.
  induction l as [|[k w] l IH]; cbn; [discriminate|].
  destruct (Z.eqb_spec k h) as [->|N]; [intros [= ->]; now left | right; now apply IH].
Qed.

Lemma ht_find_filter l h h' :
  h' <> h -> ht_find (filter (fun e => negb (fst e =? h')) l) h = ht_find l h.
Proof.
  intros Hne. induction l as [|[k w] l IH]; [reflexivity|]. cbn [filter fst].
  destruct (Z.eqb_spec k h') as [->|N]; cbn [negb ht_find]; [|now rewrite IH].
  destruct (Z.eqb_spec h' h); [contradiction | exact IH].
Qed.

Lemma ht_inv_new : ht_inv ht_new.
Proof. intros k v H. destruct H. Qed.

Lemma ht_inv_step t o : ht_inv t -> ht_inv (ht_step t o).
Proof.
  intros Hi. destruct o as [fid|h]; intros k v Hin; cbn in *.
  - destruct Hin as [E|Hin]; [inversion E; lia|]. specialize (Hi k v Hin). lia.
  - apply filter_In in Hin as [Hin _]. exact (Hi k v Hin).
Qed.

Lemma ht_lookup_step t o h fid :
  ht_inv t -> ht_lookup t h = Some fid -> o <> HClose h -> ht_lookup (ht_step t o) h = Some fid.
Proof.
  intros Hi Hl Hne. unfold ht_lookup in *. destruct o as [f|h']; cbn.
  - pose proof (Hi h fid (ht_find_in _ _ _ Hl)) as Hlt.
    destruct (ht_next t =? h) eqn:E; [lia|exact Hl].
  - rewrite ht_find_filter; [exact Hl|]. intros ->. now apply Hne.
Qed.

Lemma handle_stable : forall ops t h fid,
  ht_inv t -> ht_lookup t h = Some fid -> ~ In (HClose h) ops ->
  ht_lookup (fold_left ht_step ops t) h = Some fid.
Proof.
  induction ops as [|o ops IH]; intros t h fid Hi Hl Hn; [exact Hl|].
  cbn [fold_left]. apply IH.
  - now apply ht_inv_step.
  - apply ht_lookup_step; [exact Hi|exact Hl|]. intros ->. apply Hn. now left.
  - intros Hin. apply Hn. now right.
Qed.

Lemma handle_fresh t fid : ht_inv t -> ht_lookup t (ht_next t) = None /\
  ht_lookup (ht_open t fid) (ht_next t) = Some fid.
Proof.
  intros Hi. split.
  - unfold ht_lookup. destruct (ht_find (ht_entries t) (ht_next t)) eqn:E; [|reflexivity].
    pose proof (Hi _ _ (ht_find_in _ _ _ E)). lia.
  - unfold ht_lookup. cbn. now rewrite Z.eqb_refl.
Qed.

Lemma reachable_inv ops : ht_inv (fold_left ht_step ops ht_new).
Proof.
  generalize ht_inv_new. generalize ht_new.
  induction ops as [|o ops IH]; intros t Hi; [exact Hi|]. cbn. apply IH, ht_inv_step, Hi.
Qed.
