(* Wake-ups: [run_invariant] carries a predicate along any interleaving of the ending thread's
   actions with the caller's steps; [wake_sound] uses it with [cv_inv] for condition variables, and
   bounded waits and sticky events settle by themselves.  The three loops (poll, read_loop,
   proxy_recv) each have one induction over the trace of what the environment returns. *)
From Coq Require Import ZArith List Bool Lia.
From PV Require Import Bytes WakeGraph C13_gen C13.
Import ListNotations.
Open Scope Z_scope.

Lemma holds_mono st a f : holds st f = true -> holds (apply_action a st) f = true.
Proof.
  destruct a as [g| |]; cbn [apply_action]; auto.
  intros H. unfold holds in *. cbn [existsb]. rewrite H. apply orb_true_r.
Qed.

Lemma cond_mono r st a : cond r st = true -> cond r (apply_action a st) = true.
Proof.
  unfold cond. rewrite !existsb_exists. intros [f [Hin Hf]].
  exists f. split; [exact Hin | now apply holds_mono].
Qed.

Lemma run_invariant r (J : list action -> state -> wstate -> Prop) :
  (forall a rest st w, J (a :: rest) st w -> J rest (apply_action a st) (deliver r a w)) ->
  (forall acts st w, J acts st w -> J acts st (wstep r st w)) ->
  forall sched acts st w rem st' w',
    J acts st w -> run r sched acts st w = (rem, st', w') -> J rem st' w'.
Proof.
  intros Ha Hw. induction sched as [|b s IH]; intros acts st w rem st' w' HJ H; cbn [run] in H.
  - now inversion H; subst.
  - destruct b; [destruct acts as [|a rest]|]; apply IH in H; auto.
Qed.

Lemma run_state r sched acts st w rem st' w' :
  run r sched acts st w = (rem, st', w') -> state_after rem st' = state_after acts st.
Proof.
  apply (run_invariant r (fun acts' st' _ => state_after acts' st' = state_after acts st)); auto.
Qed.

Lemma settle_bounded_or_event r st w :
  cond r st = true ->
  bounded r || (is_event (a_prim r) && holds st (FEv (a_prim r))) = true ->
  settle r st w = WDone.
Proof.
  intros Hc He.
  assert (En : forall tok, enabled r st tok = true).
  { intros tok. unfold enabled. rewrite <- orb_assoc, He. apply orb_true_r. }
  unfold settle. destruct w as [|tok|]; cbn [wstep].
  - rewrite Hc, andb_true_r. destruct (a_has_pre r); cbn [wstep]; [reflexivity|].
    rewrite En, Hc, orb_true_r. reflexivity.
  - rewrite En, Hc, orb_true_r. reflexivity.
  - reflexivity.
Qed.

Definition cv_inv (r : api_row) (acts : list action) (st : state) (w : wstate) : Prop :=
  (notify_after_cond r acts st = true \/ cond r st = true) /\
  (w = WWait false -> notify_after_cond r acts st = true).

Lemma cv_action r a rest st w :
  cv_inv r (a :: rest) st w -> cv_inv r rest (apply_action a st) (deliver r a w).
Proof.
  intros [HP HW]. split.
  - destruct HP as [HP|HP]; [|right; now apply cond_mono].
    cbn [notify_after_cond] in HP. apply orb_true_iff in HP as [HP|HP]; [|now left].
    apply andb_true_iff in HP as [_ HP]. right. now apply cond_mono.
  - intros Hw. destruct w as [|tok|]; cbn [deliver] in Hw; try discriminate.
    destruct (delivers r a) eqn:Hd; [discriminate|].
    injection Hw as ->. specialize (HW eq_refl).
    cbn [notify_after_cond] in HW. rewrite Hd in HW. exact HW.
Qed.

Lemma cv_wstep r :
  a_has_pre r = true -> bounded r = false -> is_event (a_prim r) = false ->
  forall acts st w, cv_inv r acts st w -> cv_inv r acts st (wstep r st w).
Proof.
  intros Hpre Hb He acts st w [HP HW]. split; [exact HP|].
  intros Hw. destruct w as [|tok|]; cbn [wstep] in Hw.
  - rewrite Hpre in Hw. cbn [andb] in Hw. destruct (cond r st) eqn:Hc; [discriminate|].
    destruct HP as [HP|HP]; [exact HP|discriminate].
  - unfold enabled in Hw. rewrite Hb, He in Hw. cbn [andb orb] in Hw. rewrite orb_false_r in Hw.
    destruct tok; [|apply HW; reflexivity].
    destruct (negb (a_loop r) || cond r st) eqn:Hx; [discriminate|].
    apply orb_false_iff in Hx as [_ Hc].
    destruct HP as [HP|HP]; [exact HP|congruence].
  - discriminate.
Qed.

Theorem wake_sound r acts st0 :
  ok r acts st0 = true ->
  forall sched st w, run r sched acts st0 WPre = ([], st, w) -> settle r st w = WDone.
Proof.
  unfold ok. intros Hok sched st w H.
  apply andb_true_iff in Hok as [Hc Hw].
  pose proof (run_state _ _ _ _ _ _ _ _ H) as Hst. change (state_after [] st) with st in Hst.
  destruct (bounded r) eqn:Hb.
  - apply settle_bounded_or_event; [now rewrite Hst | now rewrite Hb].
  - cbn [orb] in Hw. destruct (is_event (a_prim r)) eqn:He.
    + apply settle_bounded_or_event; [now rewrite Hst|]. rewrite Hb, He, Hst, Hw. reflexivity.
    + apply andb_true_iff in Hw as [Hpre Hn].
      assert (J : cv_inv r acts st0 WPre) by (split; [now left|discriminate]).
      apply (run_invariant r (cv_inv r) (cv_action r) (cv_wstep r Hpre Hb He) _ _ _ _ _ _ _ J) in H as [HP HW].
      cbn [notify_after_cond] in HP, HW.
      destruct HP as [HP|HP]; [discriminate|].
      unfold settle. destruct w as [|tok|]; cbn [wstep].
      * rewrite Hpre, HP. reflexivity.
      * destruct tok; [|specialize (HW eq_refl); discriminate].
        unfold enabled. cbn [orb]. rewrite HP, orb_true_r. reflexivity.
      * reflexivity.
Qed.

Lemma all_ok_current : all_ok api_rows fn_body = true.
Proof. vm_compute. reflexivity. Qed.

Lemma all_ok_In rows body r e :
  all_ok rows body = true -> In r rows -> In e endings -> ok r (actions_with body e) [] = true.
Proof.
  unfold all_ok. intros H Hr He.
  rewrite forallb_forall in H. specialize (H r Hr). rewrite forallb_forall in H. exact (H e He).
Qed.

Lemma ok_with_timeout r acts st0 t : ok r acts st0 = true -> ok (with_timeout r t) acts st0 = true.
Proof.
  unfold ok. intros H. apply andb_true_iff in H as [Hc _].
  change (cond (with_timeout r t) (state_after acts st0)) with (cond r (state_after acts st0)).
  rewrite Hc. reflexivity.
Qed.

Lemma poll_gen (period T : Z) : forall trace now i,
  now <= T ->
  (forall t, In t trace -> 0 <= t_dur t <= period) ->
  (forall pre t post, trace = pre ++ t :: post -> T <= time_after pre now + t_dur t -> t_active t = false) ->
  (exists pre t post, trace = pre ++ t :: post /\ T <= time_after pre now + t_dur t) ->
  exists j at_ms,
    (poll trace i now = PollRaised j at_ms \/ poll trace i now = PollBroke j at_ms) /\ at_ms <= T + period.
Proof.
  induction trace as [|t rest IH]; intros now i Hnow Hdur Hact Hex.
  - destruct Hex as [pre [t [post [E _]]]]. destruct pre; discriminate.
  - assert (Hd : 0 <= t_dur t <= period) by (apply Hdur; now left).
    cbn [poll].
    destruct (Z_le_gt_dec T (now + t_dur t)) as [Hge|Hlt].
    { rewrite (Hact [] t rest eq_refl) by (cbn [time_after]; lia). cbn [negb].
      exists i, (now + t_dur t). split; [now left | lia]. }
    destruct (t_active t); cbn [negb]; [|exists i, (now + t_dur t); split; [now left | lia]].
    destruct (t_event t); [exists i, (now + t_dur t); split; [now right | lia]|].
    apply IH.
    + lia.
    + intros t' Hin. apply Hdur. now right.
    + intros pre t' post E Hle. apply (Hact (t :: pre) t' post); [now rewrite E | exact Hle].
    + destruct Hex as [[|p pre] [t' [post [E Hle]]]]; cbn [app] in E; injection E as -> ->;
        cbn [time_after] in Hle; [lia|].
      exists pre, t', post. split; [reflexivity | exact Hle].
Qed.

Lemma read_loop_eof : forall prefix n out cr e rest,
  read_loop prefix n out cr = Raise OutOfFuel ->
  r_res e = RData [] ->
  read_loop (prefix ++ e :: rest) n out cr = Raise EOFErr.
Proof.
  induction prefix as [|p ps IH]; intros n out cr e rest H He.
  - cbn [read_loop app] in *. destruct (n <=? 0); [discriminate|].
    destruct (r_hs_timed_out e); [reflexivity|]. rewrite He. reflexivity.
  - cbn [read_loop app] in *. destruct (n <=? 0); [discriminate|].
    destruct (r_hs_timed_out p); [discriminate|].
    destruct (r_res p) as [x| |[|]].
    1: destruct (Nat.eqb (length x) 0); [discriminate|]; now apply IH.
    3: destruct (r_closed p); discriminate.
    (* RTimeout and EAGAIN go the same way *)
    all: destruct (r_closed p); [discriminate|].
    all: destruct (cr && Nat.eqb (length out) 0 && r_need_rekey p); [discriminate|]; now apply IH.
Qed.

Lemma proxy_recv_eof : forall prefix size buf rest,
  proxy_recv prefix size buf = Raise OutOfFuel ->
  exists b, proxy_recv (prefix ++ PRead [] :: rest) size buf = Ok b /\ Z.of_nat (length b) < size /\
            ((forall s, In s prefix -> s = PNotReady) -> b = buf).
Proof.
  induction prefix as [|p ps IH]; intros size buf rest H; cbn [proxy_recv app] in *;
    destruct (size <=? Z.of_nat (length buf)) eqn:E; try discriminate; apply Z.leb_gt in E.
  - exists buf. cbn [length Nat.eqb]. auto.
  - destruct p as [| |x|].
    + destruct (Nat.eqb (length buf) 0); discriminate.
    + destruct (IH size buf rest H) as (b & Hb & Hl & Hn). exists b.
      repeat split; [exact Hb | exact Hl |].
      intros Hall. apply Hn. intros s Hs. apply Hall. now right.
    + destruct (Nat.eqb (length x) 0); [discriminate|].
      destruct (IH _ _ rest H) as (b & Hb & Hl & _). exists b. repeat split; [exact Hb | exact Hl |].
      intros Hall. discriminate (Hall (PRead x) (or_introl eq_refl)).
    + discriminate.
Qed.
