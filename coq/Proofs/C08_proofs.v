(* C08 — proofs.  Every DH handler found in the source has one shape: the range test on the peer's
   value, then _set_K_H, then steps without a guard (dh_site_shape); so an out-of-range value raises
   before anything is emitted and an in-range one runs to the end (dh_handler).  The group sizes of
   group exchange are bounds on bitlen; the EC acceptance test is characterised on the encodings it
   accepts (ec_accept_shape, ec_accept_uncompressed). *)
From Coq Require Import ZifyBool Znumtheory.
From PV Require Import Bytes ListFacts C08_gen C08.
Open Scope Z_scope.

Lemma gtb_ltb_iff a b : (a >? b) = (b <? a).
Proof. apply Z.gtb_ltb. Qed.

Lemma range_test v p : (v <? 1) || (v >? p - 1) = false <-> 1 <= v <= p - 1.
Proof. rewrite gtb_ltb_iff. lia. Qed.

Lemma dh_site_shape h rej :
  In (h, rej) dh_sites ->
  (forall v p, rej v p = (v <? 1) || (v >? p - 1)) /\
  exists c t, h = KCheck c :: KEmit EvSetKH :: t /\ no_guard t = true /\
              forall en, check_rejects c en = rej (e_v en) (e_p en).
Proof.
  unfold dh_sites, dh_sites_complete. cbn [app In]. intros H.
  repeat (destruct H as [H|H];
          [injection H as <- <-; split; [|eexists _, _; split; [|split]]; reflexivity|]).
  destruct H.
Qed.

Lemma dh_range h rej :
  In (h, rej) dh_sites -> forall p v, dh_accept rej p v = true <-> 1 <= v <= p - 1.
Proof.
  intros Hin p v. destruct (dh_site_shape h rej Hin) as [E _].
  unfold dh_accept. rewrite negb_true_iff, E. apply range_test.
Qed.

Lemma complete_in_all h rej : In (h, rej) dh_sites_complete -> In (h, rej) dh_sites.
Proof. unfold dh_sites. rewrite in_app_iff. tauto. Qed.

Lemma pow_mod_nonzero p v x :
  prime p -> 1 <= v <= p - 1 -> 0 <= x -> v ^ x mod p <> 0.
Proof.
  intros Hp Hv Hx. pose proof (prime_ge_2 p Hp) as Hp2.
  revert x Hx. apply natlike_ind.
  - rewrite Z.pow_0_r. rewrite Z.mod_1_l by lia. lia.
  - intros x Hx IH. rewrite Z.pow_succ_r by assumption. intro E.
    apply Z.mod_divide in E; [|lia].
    apply prime_mult in E; [|assumption]. destruct E as [E|E].
    + apply Z.divide_pos_le in E; lia.
    + apply IH. apply Z.mod_divide; [lia|assumption].
Qed.

Lemma gex_bits p : gex_group_accept p = true <-> 0 < p /\ 1024 <= bitlen p <= 8192.
Proof.
  unfold gex_group_accept, reject_gex_group. rewrite gtb_ltb_iff.
  generalize (bitlen p). intros bl. lia.
Qed.

(* kex_gss.py repeats the test of kex_gex.py word for word *)
Lemma gss_gex_same p : gss_gex_group_accept p = gex_group_accept p.
Proof. reflexivity. Qed.

Lemma bitlen_pos p : 0 < p -> bitlen p = Z.log2 p + 1.
Proof.
  intros Hp. unfold bitlen. destruct (p =? 0) eqn:E; [lia|]. now rewrite Z.abs_eq by lia.
Qed.

(* lo and hi stay variables: with the literals lia would evaluate the powers *)
Lemma bitlen_range p lo hi :
  1 <= lo -> (0 < p /\ lo <= bitlen p <= hi <-> 2 ^ (lo - 1) <= p < 2 ^ hi).
Proof.
  intros Hlo. assert (P : 0 < 2 ^ (lo - 1)) by (apply Z.pow_pos_nonneg; lia).
  split; [intros [Hp H] | intros H; assert (Hp : 0 < p) by lia; split; [assumption|]].
  all: rewrite bitlen_pos in * by assumption.
  all: rewrite Z.log2_le_pow2, Z.log2_lt_pow2 in * by assumption; lia.
Qed.

Lemma x25519_zero s : x25519_accept s = false <-> s = repeat 0 32.
Proof.
  unfold x25519_accept, reject_x25519. rewrite negb_false_iff, zlist_eqb_eq.
  change (concat (repeat [0] 32)) with (repeat 0 32). tauto.
Qed.

Lemma no_guard_ok ss en : no_guard ss = true -> snd (run_steps ss en) = Ok tt.
Proof.
  induction ss as [|s r IH]; intros H; [reflexivity|].
  destruct s; cbn [no_guard] in H; try discriminate.
  cbn [run_steps]. specialize (IH H). destruct (run_steps r en) as [tr res]. exact IH.
Qed.

Lemma guards_first_raise ss en tr e :
  guards_first ss = true -> run_steps ss en = (tr, Raise e) -> tr = [].
Proof.
  revert tr. induction ss as [|s r IH]; intros tr G R.
  - cbn in R. inversion R.
  - destruct s as [c|l|ev]; cbn [guards_first] in G; cbn [run_steps] in R.
    + destruct (check_rejects c en); [now inversion R|]. now apply IH.
    + destruct (lib_ok l en); [now apply IH|now inversion R].
    + pose proof (no_guard_ok r en G) as N.
      destruct (run_steps r en) as [tr' res]. cbn in N. inversion R; subst. discriminate.
Qed.

(* for the two tables of handlers, all_handlers and gss_prefixes, the premise holds by evaluation *)
Lemma raise_emits_nothing hs :
  forallb guards_first hs = true ->
  forall h, In h hs -> forall en tr e, run_steps h en = (tr, Raise e) -> tr = [].
Proof.
  intros A h Hin en tr e. apply guards_first_raise.
  rewrite forallb_forall in A. now apply A.
Qed.

Lemma run_ok_emits ss en tr e :
  run_steps ss en = (tr, Ok tt) -> emits e ss = true -> In e tr.
Proof.
  revert tr. induction ss as [|s r IH]; intros tr R E; [discriminate|].
  destruct s as [c|l|ev]; cbn [run_steps] in R; cbn [emits existsb orb] in E.
  - destruct (check_rejects c en); [discriminate|]. now apply IH.
  - destruct (lib_ok l en); [|discriminate]. now apply IH.
  - destruct (run_steps r en) as [tr' res]. injection R as <- ->.
    apply orb_true_iff in E as [E|E]; [left; now destruct e, ev | right; now apply IH].
Qed.

Lemma dh_sites_emit h rej :
  In (h, rej) dh_sites_complete -> In h all_handlers /\ emits EvSetKH h = true /\ emits EvActivate h = true.
Proof.
  unfold dh_sites_complete, all_handlers. cbn [In].
  intros [H|[H|[H|[H|[]]]]]; injection H as <- _; (split; [tauto | split; reflexivity]).
Qed.

(* all eight sites; for the kex_gss.py sites the steps are the handler's prefix *)
Lemma dh_handler h rej :
  In (h, rej) dh_sites ->
  forall en,
    (~ (1 <= e_v en <= e_p en - 1) -> run_steps h en = ([], Raise SSHExc)) /\
    (1 <= e_v en <= e_p en - 1 ->
       exists tr, run_steps h en = (EvSetKH :: tr, Ok tt)).
Proof.
  intros Hin en. destruct (dh_site_shape h rej Hin) as [E (c & t & -> & N & C)].
  cbn [run_steps]. rewrite C, E, <- range_test.
  destruct ((e_v en <? 1) || (e_v en >? e_p en - 1)); split; try easy.
  intros _. apply (no_guard_ok t en) in N.
  destruct (run_steps t en) as [tr res]. cbn [snd] in N. subst res. now exists tr.
Qed.

Lemma ecdh_runs en :
  run_steps steps_ecdh_init en =
    (if e_point_ok en && e_exch_ok en then ([EvSetKH; EvSend; EvActivate], Ok tt) else ([], Raise ValueErr)) /\
  run_steps steps_ecdh_reply en =
    (if e_point_ok en && e_exch_ok en then ([EvSetKH; EvVerifyKey; EvActivate], Ok tt) else ([], Raise ValueErr)).
Proof.
  unfold steps_ecdh_init, steps_ecdh_reply. cbn [run_steps lib_ok].
  now destruct (e_point_ok en), (e_exch_ok en).
Qed.

Lemma ec_handler en :
  (e_point_ok en = false ->
   run_steps steps_ecdh_init en = ([], Raise ValueErr) /\ run_steps steps_ecdh_reply en = ([], Raise ValueErr)).
Proof. intros H. destruct (ecdh_runs en) as [-> ->]. now rewrite H. Qed.

Lemma ec_accept_shape p a b flen sq t r :
  ec_accept (p, a, b, flen) sq (t :: r) = true ->
  let n := Z.to_nat (Z.min flen 128) in
  (t = 4 /\ length r = (2 * n)%nat /\
   0 <= be_decode (firstn n r) < p /\ 0 <= be_decode (skipn n r) < p /\
   (be_decode (skipn n r) * be_decode (skipn n r)) mod p =
   (be_decode (firstn n r) * be_decode (firstn n r) * be_decode (firstn n r) + a * be_decode (firstn n r) + b) mod p) \/
  ((t = 2 \/ t = 3) /\ length r = n /\ 0 <= be_decode r < p /\ sq = true).
Proof.
  intros H n. unfold ec_accept in H. fold n in H.
  destruct (t =? 4) eqn:E; rewrite !andb_true_iff in H; [left | right].
  - destruct H as [[Hl Hb] [[Hx Hy] Hon]]. unfold on_curve, curve_rhs in Hon.
    pose proof (be_decode_range _ (bytes_ok_firstn n r Hb)).
    pose proof (be_decode_range _ (bytes_ok_skipn n r Hb)). lia.
  - destruct H as [[[[Ht Hl] Hb] Hx] Hsq]. pose proof (be_decode_range r Hb). lia.
Qed.

Lemma ec_accept_uncompressed p a b flen sq x y :
  let n := Z.to_nat (Z.min flen 128) in
  0 <= x < 256 ^ Z.of_nat n -> 0 <= y < 256 ^ Z.of_nat n ->
  ec_accept (p, a, b, flen) sq (4 :: be_encode n x ++ be_encode n y) =
  (x <? p) && (y <? p) && on_curve (p, a, b, flen) x y.
Proof.
  intros n Hx Hy. unfold ec_accept. fold n. cbn [Z.eqb Pos.eqb].
  generalize (firstn_app_exact (be_encode n x) (be_encode n y)),
    (skipn_app_exact (be_encode n x) (be_encode n y)).
  rewrite be_encode_length. intros -> ->.
  rewrite app_length, !be_encode_length, bytes_ok_app, !be_encode_ok, !be_decode_encode by assumption.
  replace (n + n)%nat with (2 * n)%nat by lia. now rewrite Nat.eqb_refl.
Qed.

(* two ways to decide the curve equation for large numbers without the kernel reducing modulo p:
   from the quotient k, and from the point below *)
Lemma on_curve_quotient p a b flen x y k :
  y * y = x * x * x + a * x + b + k * p -> on_curve (p, a, b, flen) x y = true.
Proof. intros E. unfold on_curve, curve_rhs. rewrite E, Z_mod_plus_full. apply Z.eqb_refl. Qed.

Lemma on_curve_succ p a b flen x y :
  on_curve (p, a, b, flen) x y = true -> (2 * y + 1) mod p <> 0 -> on_curve (p, a, b, flen) x (y + 1) = false.
Proof.
  unfold on_curve, curve_rhs. rewrite Z.eqb_eq, Z.eqb_neq. intros E N E'. apply N.
  replace (2 * y + 1) with ((y + 1) * (y + 1) - y * y) by ring.
  rewrite Zminus_mod, E, E', Z.sub_diag. apply Zmod_0_l.
Qed.

Lemma ec_rejects_degenerate c sq : ec_accept c sq [] = false /\ ec_accept c sq [0] = false.
Proof. destruct c as [[[p a] b] flen]. split; reflexivity. Qed.

Lemma ec_valid_accept c bs : ec_valid c bs -> exists sq, ec_accept c sq bs = true.
Proof. intros [H|[H _]]; eauto. Qed.

Lemma prime_23 : prime 23.
Proof.
  apply prime_intro; [lia|]. intros n Hn. apply Zgcd_1_rel_prime.
  assert (C : n = 1 \/ n = 2 \/ n = 3 \/ n = 4 \/ n = 5 \/ n = 6 \/ n = 7 \/ n = 8 \/ n = 9 \/ n = 10 \/
              n = 11 \/ n = 12 \/ n = 13 \/ n = 14 \/ n = 15 \/ n = 16 \/ n = 17 \/ n = 18 \/ n = 19 \/
              n = 20 \/ n = 21 \/ n = 22) by lia.
  repeat (destruct C as [-> | C]; [reflexivity|]). subst. reflexivity.
Qed.
