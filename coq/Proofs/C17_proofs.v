(* The theorems about [run] rest on one invariant: [Inv s k] ties three fields of the client state to
   the stage k the monitor [mon] has reached, and every operation of the model keeps it ([ok]).
   SSHClient.connect is used through the table of its six outcomes, [connect_outcome]. *)
From PV Require Import Bytes C41 C17 C41_proofs.
Open Scope Z_scope.

Lemma mon_app k a b :
  mon k (a ++ b) = match mon k a with Some k' => mon k' b | None => None end.
Proof.
  revert k. induction a as [|o a IH]; intros k; cbn [app mon]; [reflexivity|].
  destruct o; try apply IH. all: destruct (Nat.eqb k 3); [apply IH | reflexivity].
Qed.

Definition kex3 : list obs := [OVerifyKeyOk; ONewkeysOut; ONewkeysIn].

Lemma subseq_skip l o tr : subseq l tr -> subseq l (o :: tr).
Proof. destruct l as [|a l]; intros H; [exact I | right; exact H]. Qed.

(* the monitor is a finite automaton, so the step is a sweep over its four stages and the eight
   observations; likewise in [mon_le] *)
Lemma mon_reaches_3 tr : forall i, (i <= 3)%nat -> mon i tr = Some 3%nat -> subseq (skipn i kex3) tr.
Proof.
  induction tr as [|o tr IH]; intros i Hi E.
  - cbn in E. injection E as ->. exact I.
  - destruct i as [|[|[|[|i]]]]; [..|lia]; [| | |now destruct tr].
    all: destruct o; cbn in E; try discriminate; apply IH in E; try lia.
    all: first [left; split; [reflexivity | exact E] | now apply subseq_skip].
Qed.

Lemma mon_le tr : forall i j, (i <= 3)%nat -> mon i tr = Some j -> (i <= j <= 3)%nat.
Proof.
  induction tr as [|o tr IH]; intros i j Hi E.
  - cbn in E. injection E as <-. lia.
  - destruct i as [|[|[|[|i]]]]; try lia; destruct o; cbn in E; try discriminate;
      apply IH in E; lia.
Qed.

(* the observations the monitor admits at stage 3 only *)
Definition guarded (o : obs) : bool :=
  match o with OUserauth _ | OServiceRequest => true | _ => false end.

Lemma mon_guarded pre o post k :
  guarded o = true -> mon 0 (pre ++ o :: post) = Some k -> subseq kex3 pre.
Proof.
  intros G E. rewrite mon_app in E. destruct (mon 0 pre) as [j|] eqn:Ej; [|discriminate].
  pose proof (mon_le pre 0%nat j ltac:(lia) Ej) as Hj.
  assert (j = 3%nat) as ->
    by (destruct o; try discriminate; cbn [mon] in E; destruct (Nat.eqb_spec j 3); easy).
  now apply (mon_reaches_3 pre 0%nat).
Qed.

Definition Inv (s : st) (k : nat) : Prop :=
  (k <= 3)%nat /\
  (s_kex_done s = true -> k = 3%nat) /\
  (s_kh s = true -> (2 <= k)%nat) /\
  (s_kex_done s = false -> s_handler s = None).

Definition ok (k : nat) (r : st * list obs) : Prop :=
  exists k', mon k (snd r) = Some k' /\ Inv (fst r) k'.

Lemma inv_init : Inv init 0.
Proof. unfold Inv, init; cbn. repeat split; try easy; lia. Qed.

Lemma inv_same s k s' :
  Inv s k -> s_kex_done s' = s_kex_done s -> s_kh s' = s_kh s -> s_handler s' = s_handler s -> Inv s' k.
Proof. intros HI E1 E2 E3. unfold Inv. now rewrite E1, E2, E3. Qed.

Lemma ok_same s k s' o :
  Inv s k -> s_kex_done s' = s_kex_done s -> s_kh s' = s_kh s -> s_handler s' = s_handler s ->
  (forall j, mon j o = Some j) -> ok k (s', o).
Proof. intros HI E1 E2 E3 M. exists k. split; [apply M | now apply (inv_same s)]. Qed.

Lemma die_ok s k : Inv s k -> ok k (die s).
Proof. intros HI. now apply (ok_same s). Qed.

Lemma with_expected_ok s k e o :
  Inv s k -> (forall j, mon j o = Some j) -> ok k (with_expected s e, o).
Proof. intros HI. now apply (ok_same s). Qed.

Lemma handler_stage s k c : Inv s k -> s_handler s = Some c -> k = 3%nat.
Proof.
  intros (_ & H1 & _ & H3) Eh. apply H1. destruct (s_kex_done s); [reflexivity|].
  now rewrite H3 in Eh.
Qed.

Lemma user_step_ok s k u : Inv s k -> ok k (user_step s u).
Proof.
  intros HI. destruct u as [c|]; cbn [user_step]; [|now apply (ok_same s)].
  destruct (s_active s), (s_kex_done s) eqn:Ed; cbn [negb orb]; try now apply (ok_same s).
  (* the guard passed: initial_kex_done, so the stage is 3 *)
  assert (k = 3%nat) as -> by now apply HI.
  exists 3%nat. split; [reflexivity|]. unfold Inv. cbn [fst s_kex_done s_kh s_handler].
  repeat split; try easy; lia.
Qed.

Lemma dispatch_ok s k m : Inv s k -> ok k (dispatch s m).
Proof.
  intros HI. destruct m; cbn [dispatch]; try now apply with_expected_ok.
  - (* KEXINIT *)
    destruct (_ && _ && _); [now apply die_ok | now apply (ok_same s)].
  - (* NEWKEYS: K / H present, so the stage is at least 2 *)
    destruct (s_negotiated s && s_kh s) eqn:Ek; [|now apply die_ok].
    apply andb_true_iff in Ek as [_ Ekh].
    assert (Hk : (2 <= k <= 3)%nat) by (destruct HI as (H0 & _ & H2 & _); specialize (H2 Ekh); lia).
    exists 3%nat. split; [|now unfold Inv; cbn].
    cbn [snd mon]. now destruct k as [|[|[|[|k]]]]; try lia.
  - (* SERVICE_ACCEPT *)
    destruct (s_handler s) as [c|] eqn:Eh; [|now apply with_expected_ok].
    pose proof (handler_stage s k c HI Eh) as ->. exists 3%nat. split; [reflexivity|].
    now apply (inv_same s).
  - destruct (s_handler s); now apply with_expected_ok.
Qed.

(* the last kex message with a good signature sets K / H; VerifyKeyOk and NewkeysOut lift the stage
   to 2 *)
Lemma kex_final_ok s k s' :
  Inv s k -> s_kex_done s' = s_kex_done s -> s_kh s' = true -> s_handler s' = s_handler s ->
  ok k (s', [OVerifyKeyOk; ONewkeysOut]).
Proof.
  intros (H0 & H1 & _ & H3) Ed Ekh Eh. exists (Nat.max k 2). split.
  - now destruct k as [|[|[|[|k]]]]; try lia.
  - unfold Inv. cbn [fst]. rewrite Ed, Eh. repeat split; try lia; [|assumption].
    intros Ed'. specialize (H1 Ed'). lia.
Qed.

Lemma gated_ok s k m : Inv s k -> ok k (gated s m).
Proof.
  intros HI. unfold gated.
  assert (D : forall e, ok k (dispatch (with_expected s e) m))
    by (intro e; now apply dispatch_ok, (inv_same s)).
  destruct (s_expected s); [now apply dispatch_ok|..].
  all: destruct (negb (expect_matches _ m)); [now apply die_ok|].
  all: destruct m; try apply D.
  all: destruct final; cbn [negb]; [|now apply with_expected_ok].
  all: destruct sig_ok; [now apply (kex_final_ok s) | now apply die_ok].
Qed.

Lemma net_step_ok s k m : Inv s k -> ok k (net_step s m).
Proof.
  intros HI. unfold net_step. destruct (negb (s_active s)); [now apply (ok_same s)|].
  assert (C : ok k (net_core s m)).
  { unfold net_core. destruct m; try now apply gated_ok.
    3: now apply die_ok.
    all: destruct (_ && _); [now apply die_ok | now apply (ok_same s)]. }
  destruct (net_core s m) as [s1 o1]. destruct C as (k' & M & I1). exists k'.
  split; [exact M | now apply (inv_same s1)].
Qed.

Lemma run_from_ok evs : forall s k, Inv s k -> ok k (run_from s evs).
Proof.
  induction evs as [|e evs IH]; intros s k HI; cbn [run_from]; [now apply (ok_same s)|].
  assert (S : ok k (step s e)) by (destruct e; [now apply net_step_ok | now apply user_step_ok]).
  destruct (step s e) as [s1 o1]. destruct S as (k1 & M1 & I1). specialize (IH s1 k1 I1).
  destruct (run_from s1 evs) as [s2 o2]. destruct IH as (k2 & M2 & I2).
  exists k2. split; [|exact I2]. cbn [snd] in *. now rewrite mon_app, M1.
Qed.

Lemma run_guarded evs pre o post :
  guarded o = true -> run evs = pre ++ o :: post -> subseq kex3 pre.
Proof.
  intros G E. destruct (run_from_ok evs init 0%nat inv_init) as (k & M & _).
  fold (run evs) in M. rewrite E in M. now apply (mon_guarded pre o post k).
Qed.

Lemma step_inactive s e :
  s_active s = false ->
  s_active (fst (step s e)) = false /\ forall o, In o (snd (step s e)) -> o = ONoSession.
Proof.
  intros Ha. destruct e as [m|[c|]]; cbn [step]; unfold net_step, user_step; rewrite ?Ha; cbn;
    intuition.
Qed.

Lemma hostkey_name_port h b port : port <> 22 -> hostkey_name h b port = Nm false b.
Proof. intros H. unfold hostkey_name. now destruct (Z.eqb_spec port 22). Qed.

(* how SSHClient.connect ends, given the stored keys [ours] of the host *)
Section Outcome.
Variables (ours : option (list entry)) (p : policy) (gss kex_ok : bool) (sk : key).
Inductive connect_outcome : list cobs * result unit -> Prop :=
  | co_no_kex : kex_ok = false -> connect_outcome ([], Raise SSHExc)
  | co_gss : kex_ok = true -> gss = true -> connect_outcome ([CKexDone; CAuth], Ok tt)
  | co_accepted : kex_ok = true -> gss = false -> ours = None -> policy_accepts p = true ->
      connect_outcome ([CKexDone; CPolicy true; CAuth], Ok tt)
  | co_rejected : kex_ok = true -> gss = false -> ours = None -> policy_accepts p = false ->
      connect_outcome ([CKexDone; CPolicy false], Raise SSHExc)
  | co_match es : kex_ok = true -> gss = false -> ours = Some es -> subdict_get es (ktype sk) = Some sk ->
      connect_outcome ([CKexDone; CCompare true; CAuth], Ok tt)
  | co_mismatch es : kex_ok = true -> gss = false -> ours = Some es -> subdict_get es (ktype sk) <> Some sk ->
      connect_outcome ([CKexDone; CCompare false], Raise bad_host_key).
End Outcome.

Lemma client_connect_cases hm sys usr h b port p gss kex_ok sk :
  connect_outcome (our_server_keys hm sys usr (hostkey_name h b port)) p gss kex_ok sk
                  (client_connect hm sys usr h b port p gss kex_ok sk).
Proof.
  unfold client_connect. destruct kex_ok; [|now constructor]. destruct gss; [now constructor|]. cbn [negb].
  destruct (our_server_keys _ _ _ _) as [es|].
  - destruct (subdict_get es (ktype sk)) as [k|] eqn:Eg; [destruct (key_eqb k sk) eqn:E|].
    + apply key_eqb_eq in E as ->. now apply co_match with es.
    + apply co_mismatch with es; try easy. rewrite Eg. intros [= ->]. now rewrite key_eqb_refl in E.
    + apply co_mismatch with es; try easy. now rewrite Eg.
  - destruct (policy_accepts p) eqn:Ep; now constructor.
Qed.
