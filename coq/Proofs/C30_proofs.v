(* Server: every piece of server code has the shape one_or_raise (one packet with the request's id,
   or an exception before anything is sent); the fall-back of start_subsystem turns both into one packet.
   Client: _read_response is used through one equation per packet read (read_response_cons); the
   client invariant wf is kept by every layer, and under it every wait is for a reply still unread. *)
From Coq Require Import ZArith List Bool Lia.
From PV Require Import Bytes ListFacts C30_gen C30.
Import ListNotations.
Open Scope Z_scope.

(* brk splits on the innermost scrutinee of the goal's matches. *)
Ltac brk :=
  match goal with
  | |- context [match ?x with _ => _ end] =>
      lazymatch x with
      | context [match _ with _ => _ end] => fail
      | _ => destruct x eqn:?
      end
  end.

Lemma kind_sound t :
  match kind_of t with
  | KUnnamed | KUnhandled => True
  | KOpen => t = g_CMD_OPEN | KClose => t = g_CMD_CLOSE | KRead => t = g_CMD_READ
  | KWrite => t = g_CMD_WRITE | KRemove => t = g_CMD_REMOVE | KRename => t = g_CMD_RENAME
  | KMkdir => t = g_CMD_MKDIR | KRmdir => t = g_CMD_RMDIR | KOpendir => t = g_CMD_OPENDIR
  | KReaddir => t = g_CMD_READDIR | KStat => t = g_CMD_STAT | KLstat => t = g_CMD_LSTAT
  | KFstat => t = g_CMD_FSTAT | KSetstat => t = g_CMD_SETSTAT | KFsetstat => t = g_CMD_FSETSTAT
  | KReadlink => t = g_CMD_READLINK | KSymlink => t = g_CMD_SYMLINK | KRealpath => t = g_CMD_REALPATH
  | KExtended => t = g_CMD_EXTENDED
  end.
Proof.
  unfold kind_of. repeat brk; try exact I; apply Z.eqb_eq; assumption.
Qed.

Definition one_or_raise (P : Z -> Prop) (id : Z) (o : out) : Prop :=
  o = Exc [] \/ exists rt d, o = Done [(rt, id, d)] /\ P rt.

Lemma one_or_raise_impl (P Q : Z -> Prop) id o :
  (forall rt, P rt -> Q rt) -> one_or_raise P id o -> one_or_raise Q id o.
Proof. intros H [E|(rt & d & E & Hp)]; [left; exact E|right; eauto]. Qed.

Lemma one_packet (P : Z -> Prop) id rt d : P rt -> one_or_raise P id (Done [(rt, id, d)]).
Proof. right. eauto. Qed.

Lemma send_status_shape (P : Z -> Prop) id k : P g_CMD_STATUS -> one_or_raise P id (send_status id k).
Proof.
  intros H. unfold send_status. destruct ((0 <=? k) && (k <? 4294967296)); [now apply one_packet | now left].
Qed.

Lemma send_status_cb_shape (P : Z -> Prop) id c : P g_CMD_STATUS -> one_or_raise P id (send_status_cb id c).
Proof. intros H. destruct c; try (now left). now apply send_status_shape. Qed.

Definition cf_type (rt : Z) : Prop := rt = g_CMD_STATUS \/ rt = g_CMD_EXTENDED_REPLY.

Lemma cf_loop_shape id lim reads : forall offset, one_or_raise cf_type id (cf_loop id lim offset reads).
Proof.
  induction reads as [|r rest IH]; intros offset; cbn [cf_loop];
    (destruct (lim <=? offset); [apply one_packet; now right|]).
  - apply one_packet. now right.
  - destruct r as [n | n | k | |]; try (now left).
    + destruct (n <=? 0); [apply one_packet; now right | apply IH].
    + apply one_packet. now left.
    + apply send_status_shape. now left.
Qed.

Lemma check_file_shape s id h a : one_or_raise cf_type id (check_file s id h a).
Proof.
  assert (St : cf_type g_CMD_STATUS) by now left.
  unfold check_file.
  destruct (negb (cf_list_ok a)); [now left|].
  destruct (negb (memz h (s_files s))); [now apply one_packet|].
  destruct (negb (cf_alg_ok a)); [now apply send_status_shape|].
  assert (A : forall length,
             one_or_raise cf_type id
               (if (if cf_block a =? 0 then length else cf_block a) <? g_CF_MIN_BLOCK then send_status id g_SFTP_FAILURE
                else cf_loop id (cf_start a + length) (cf_start a) (cf_reads a))).
  { intros length. destruct (_ <? g_CF_MIN_BLOCK); [now apply send_status_shape | apply cf_loop_shape]. }
  destruct (cf_length a =? 0); [|apply A].
  destruct (cf_stat a) as [k | | | n | n | |]; unfold send_status_desc_cb; try (now left).
  - now apply send_status_shape.
  - apply A.
  - now apply one_packet.
Qed.

(* _process is a finite table: the kind, then tests on the handle, the text and the callback result.
   Every leaf is one of: an exception with nothing sent; a _send_status; one packet, of type STATUS
   or of the type kind_sound ties to the request's; and, left over at the end, _check_file. *)
Lemma process_shape s q :
  one_or_raise (fun rt => valid_for (q_t q) rt = true) (q_id q) (snd (process s q)).
Proof.
  unfold process, attrs_or_status, invalid_handle. pose proof (kind_sound (q_t q)) as H.
  assert (St : valid_for (q_t q) g_CMD_STATUS = true) by reflexivity.
  destruct (kind_of (q_t q)); cbv beta iota in H; repeat brk; cbn [snd];
    first [ now left
          | now apply send_status_shape
          | now apply send_status_cb_shape
          | apply one_packet; first [exact St | rewrite H; reflexivity]
          | idtac ].
  apply (one_or_raise_impl cf_type); [|apply check_file_shape].
  intros rt [-> | ->]; [exact St | rewrite H; reflexivity].
Qed.

(* one iteration of start_subsystem: the fall-back turns an exception into a FAILURE status *)
Lemma server_once s q :
  exists r, snd (serve s q) = [r] /\ r_id r = q_id q /\ valid_for (q_t q) (r_type r) = true.
Proof.
  unfold serve. pose proof (process_shape s q) as H.
  destruct (process s q) as [s' o]. cbn [snd] in *.
  destruct H as [-> | (rt & d & -> & Hv)]; eexists; (split; [reflexivity|split; [reflexivity|]]);
    [reflexivity | exact Hv].
Qed.

Lemma memz_In h l : memz h l = true <-> In h l.
Proof. apply (existsb_eqb_In Z.eqb_eq). Qed.

Lemma remove_z_In x h l : In x (remove_z h l) <-> In x l /\ x <> h.
Proof. unfold remove_z. rewrite filter_In, negb_true_iff, Z.eqb_neq. tauto. Qed.

Lemma remove_z_absent h l : memz h l = false -> remove_z h l = l.
Proof.
  induction l as [|x l IH]; cbn [memz existsb remove_z filter]; [reflexivity|].
  intros [Hx Hl]%orb_false_elim. rewrite Z.eqb_sym, Hx. cbn [negb]. f_equal. exact (IH Hl).
Qed.

(* what the awaited reply (t, code) makes _read_response return *)
Definition status_result (t code : Z) : rr :=
  if t =? g_CMD_STATUS then
    match convert_status code with Some e => RRaise e | None => RFound t code end
  else RFound t code.

Lemma status_result_not_blocked t code : status_result t code <> RBlocked.
Proof.
  unfold status_result. destruct (t =? g_CMD_STATUS); [destruct (convert_status code)|]; discriminate.
Qed.

(* The packet's number leaves _expecting in every branch: a number nobody expects was not in it. *)
Lemma read_response_cons w t num code rest exp :
  read_response w ((t, num, code) :: rest) exp =
    match w with
    | Some n => if memz num exp && (num =? n) then (status_result t code, rest, remove_z num exp)
                else read_response w rest (remove_z num exp)
    | None => (RNone, rest, remove_z num exp)
    end.
Proof.
  cbn [read_response]. destruct (memz num exp) eqn:M; cbn [negb andb].
  - destruct w as [n|]; [|reflexivity]. unfold status_result. destruct (num =? n); [|reflexivity].
    destruct (t =? g_CMD_STATUS); [destruct (convert_status code)|]; reflexivity.
  - rewrite (remove_z_absent _ _ M). destruct w; reflexivity.
Qed.

Lemma rr_inv w inp : forall exp r i e,
  incl exp (map p_num inp) -> read_response w inp exp = (r, i, e) ->
  incl e (map p_num i) /\ incl (map p_num i) (map p_num inp).
Proof.
  induction inp as [|[[t num] code] rest IH]; intros exp r i e Hinc Heq.
  - injection Heq as <- <- <-. auto using incl_refl.
  - rewrite read_response_cons in Heq.
    change (map p_num ((t, num, code) :: rest)) with (num :: map p_num rest) in *.
    assert (Hinc' : incl (remove_z num exp) (map p_num rest)).
    { intros x [Hx Hne]%remove_z_In. destruct (Hinc x Hx); [congruence | assumption]. }
    assert (Hret : (r, i, e) = (r, rest, remove_z num exp) ->
                   incl e (map p_num i) /\ incl (map p_num i) (num :: map p_num rest)).
    { intros [= -> ->]. split; [exact Hinc' | apply incl_tl, incl_refl]. }
    destruct w as [n|]; [destruct (memz num exp && (num =? n))|]; try (apply Hret; congruence).
    destruct (IH _ _ _ _ Hinc' Heq). split; [assumption | now apply incl_tl].
Qed.

Lemma rr_found w inp : forall exp r i e,
  In w exp -> In w (map p_num inp) -> read_response (Some w) inp exp = (r, i, e) -> r <> RBlocked.
Proof.
  induction inp as [|[[t num] code] rest IH]; intros exp r i e Hexp Hin Heq.
  - destruct Hin.
  - rewrite read_response_cons in Heq. destruct (memz num exp && (num =? w)) eqn:E.
    + injection Heq as <- _ _. apply status_result_not_blocked.
    + assert (Hne : w <> num).
      { intros <-. apply memz_In in Hexp. rewrite Hexp, Z.eqb_refl in E. discriminate E. }
      eapply IH; [| |exact Heq].
      * apply remove_z_In. split; assumption.
      * destruct Hin as [Hin | Hin]; [symmetry in Hin; contradiction | assumption].
Qed.

Lemma rr_none_nonempty inp exp r i e :
  inp <> [] -> read_response None inp exp = (r, i, e) -> r = RNone.
Proof.
  destruct inp as [|[[t num] code] rest]; [congruence|]. rewrite read_response_cons.
  intros _ [= <- _ _]. reflexivity.
Qed.

(* The client invariant: every expected reply is still unread, and request numbers are fresh, so
   that a reply is never confused with an older packet. *)
Definition wf (c : cst) : Prop :=
  inv c /\ (forall n, In n (map p_num (c_in c)) -> n < c_no c).

Lemma wf_init : wf c_init.
Proof. split; [apply incl_refl | intros n []]. Qed.

Lemma async_wf c rp : wf c -> wf (fst (async_request c rp)).
Proof.
  unfold wf, inv, async_request. cbn [fst c_exp c_in c_no]. rewrite map_app. cbn [map p_num fst snd].
  intros [A B]. split.
  - intros x [<-|Hx]; apply in_or_app; [right; now left|left; auto].
  - intros n [Hn%B|[<-|[]]]%in_app_or; lia.
Qed.

Lemma rr_wf w c r i e :
  wf c -> read_response w (c_in c) (c_exp c) = (r, i, e) -> wf (mkC (c_no c) e i).
Proof.
  intros [A B] H. destruct (rr_inv _ _ _ _ _ _ A H) as [X Y].
  split; [exact X | intros n Hn; apply B, Y, Hn].
Qed.

Lemma rr_last n t code pre : forall exp,
  In n exp -> ~ In n (map p_num pre) ->
  exists e, read_response (Some n) (pre ++ [(t, n, code)]) exp = (status_result t code, [], e).
Proof.
  induction pre as [|[[t0 m] k] rest IH]; intros exp Hin Hnot; cbn [app]; rewrite read_response_cons.
  - apply memz_In in Hin. rewrite Hin, Z.eqb_refl. eexists; reflexivity.
  - change (map p_num ((t0, m, k) :: rest)) with (m :: map p_num rest) in Hnot.
    assert (Hm : m <> n) by (intros ->; apply Hnot; left; reflexivity).
    rewrite (proj2 (Z.eqb_neq m n) Hm), andb_false_r. apply IH.
    + apply remove_z_In. split; [assumption | congruence].
    + intros X. apply Hnot. right. exact X.
Qed.

(* where _request and a non-pipelined _write stand: numbers are fresh, so no older packet carries
   the new one *)
Lemma rr_newest c t k :
  wf c ->
  exists e, read_response (Some (c_no c)) (c_in c ++ [(t, c_no c, k)]) (c_no c :: c_exp c)
            = (status_result t k, [], e).
Proof.
  intros [_ B]. apply rr_last; [now left|]. intros X%B. lia.
Qed.

(* The reply a synchronous request returns is the server's reply to that very request. *)
Lemma request_spec c t k :
  wf c ->
  exists c', wf c' /\ request c (t, k) =
    (match status_result t k with RRaise x => ORaise x | _ => ORet end,
     match status_result t k with RFound a _ => a | _ => 0 end,
     match status_result t k with RFound _ b => b | _ => 0 end, c').
Proof.
  intros Hw. destruct (rr_newest c t k Hw) as [e He].
  pose proof (rr_wf _ _ _ _ _ (async_wf c (t, k) Hw) He) as W.
  unfold request, async_request. cbn [fst snd c_in c_exp c_no] in *. rewrite He.
  pose proof (status_result_not_blocked t k).
  destruct (status_result t k); try contradiction; eexists; (split; [exact W | reflexivity]).
Qed.

(* returned_ok closes the branches in which a layer is done: it has an outcome other than OBlocked
   and a client known to be wf. *)
Lemma returned_ok {A} {r r' : ores} {x x' : A} {c c' : cst} :
  (r, x, c) = (r', x', c') -> r <> OBlocked -> wf c -> r' <> OBlocked /\ wf c'.
Proof. intros [= <- _ <-]. split; assumption. Qed.

Lemma request_ok c rp r t code c' :
  wf c -> request c rp = (r, t, code, c') -> r <> OBlocked /\ wf c'.
Proof.
  intros Hw Heq. destruct rp as [t0 k]. destruct (request_spec c t0 k Hw) as (c1 & W & E).
  rewrite E in Heq. injection Heq as <- _ _ <-. split; [|exact W].
  destruct (status_result t0 k); discriminate.
Qed.

Lemma drain_ok reqs : forall c r reqs' c',
  wf c -> drain true reqs c = (r, reqs', c') -> r <> OBlocked /\ wf c'.
Proof.
  induction reqs as [|q rest IH]; intros c r reqs' c' Hw Heq; cbn [drain andb] in Heq.
  - now apply (returned_ok Heq).
  - destruct (negb (memz q (c_exp c))) eqn:M; [eauto|].
    apply negb_false_iff, memz_In in M.
    destruct (read_response (Some q) (c_in c) (c_exp c)) as [[r0 i] e] eqn:Er.
    pose proof (rr_found _ _ _ _ _ _ M (proj1 Hw _ M) Er) as Hnb.
    pose proof (rr_wf _ _ _ _ _ Hw Er) as W.
    destruct r0; [destruct (t =? g_CMD_STATUS); [eauto|]|..]; try congruence;
      now apply (returned_ok Heq).
Qed.

Lemma write_ok ready rp f c r f' c' :
  wf c -> write_op true ready rp f c = (r, f', c') -> r <> OBlocked /\ wf c'.
Proof.
  intros Hw Heq. unfold write_op in Heq. pose proof (async_wf c rp Hw) as H1.
  destruct (async_request c rp) as [c1 n]. cbn [fst] in H1.
  destruct (negb (f_pipe f) || ((g_DRAIN_THRESHOLD <? Z.of_nat (length (f_reqs f ++ [n]))) && ready)).
  - destruct (drain true (f_reqs f ++ [n]) c1) as [[r0 q0] c2] eqn:Ed.
    injection Heq as <- _ <-. eapply drain_ok; eauto.
  - now apply (returned_ok Heq).
Qed.

Lemma flush_ok pend : forall f c r f' c',
  wf c -> flush_ops true pend f c = (r, f', c') -> r <> OBlocked /\ wf c'.
Proof.
  induction pend as [|[ready rp] rest IH]; intros f c r f' c' Hw Heq; cbn [flush_ops] in Heq.
  - now apply (returned_ok Heq).
  - destruct (write_op true ready rp f c) as [[r0 f1] c1] eqn:Ew.
    destruct (write_ok _ _ _ _ _ _ _ Hw Ew) as [Hnb Hi].
    destruct r0; [eauto| |congruence]. now apply (returned_ok Heq).
Qed.

Lemma close_ok pend rp f c r f' c' :
  wf c -> close_op true pend rp f c = (r, f', c') -> r <> OBlocked /\ wf c'.
Proof.
  intros Hw Heq. unfold close_op in Heq.
  destruct (f_closed f); [now apply (returned_ok Heq)|].
  destruct (flush_ops true pend f c) as [[r0 f1] c1] eqn:Ef.
  destruct (flush_ok _ _ _ _ _ _ Hw Ef) as [Hnb Hi].
  destruct r0; [|now apply (returned_ok Heq)|congruence].
  destruct (request c1 rp) as [[[r1 t1] k1] c2] eqn:Eq.
  destruct (request_ok _ _ _ _ _ _ Hi Eq) as [Hnb2 Hi2].
  destruct r1 as [|x|]; [| destruct x |]; now apply (returned_ok Heq).
Qed.

Lemma step_ok o f c r f' c' :
  wf c -> step true o f c = (r, f', c') -> r <> OBlocked /\ wf c'.
Proof.
  intros Hw Heq. destruct o as [ready rp | rp | b | pend rp]; cbn [step] in Heq.
  - destruct (f_closed f); [|eapply write_ok; eauto].
    now apply (returned_ok Heq).
  - destruct (request c rp) as [[[r1 t1] k1] c1] eqn:Eq.
    injection Heq as <- _ <-. eapply request_ok; eauto.
  - now apply (returned_ok Heq).
  - eapply close_ok; eauto.
Qed.

Lemma run_never_blocks prog : forall f c, wf c -> ~ In OBlocked (run true prog f c).
Proof.
  induction prog as [|o rest IH]; intros f c Hw; cbn [run]; [intros []|].
  destruct (step true o f c) as [[r f1] c1] eqn:Es.
  destruct (step_ok _ _ _ _ _ _ Hw Es) as [Hnb Hi].
  destruct r; try congruence; intros [H | H]; try discriminate H; eapply IH; eauto.
Qed.

Lemma run_length prog : forall f c, ~ In OBlocked (run true prog f c) -> length (run true prog f c) = length prog.
Proof.
  induction prog as [|o rest IH]; intros f c H; cbn [run] in *; [reflexivity|].
  destruct (step true o f c) as [[r f1] c1].
  destruct r; cbn [length]; try (f_equal; apply IH; intros X; apply H; right; exact X).
  exfalso. apply H. left. reflexivity.
Qed.

Definition ok_status : reply := (g_CMD_STATUS, g_SFTP_OK).
(* 60 pipelined writes, one synchronous request, 41 more writes with data ready to read: the last
   one passes the drain threshold, and the reply to write 1 was consumed by the synchronous request *)
Definition hang_prog : list op :=
  OSetPipe true :: repeat (OWrite false ok_status) 60 ++ OSync (g_CMD_ATTRS, 0) :: repeat (OWrite true ok_status) 41.

(* non-pipelined files: every write is answered before _write returns *)
Definition nonpipe_state (f : fst_) (c : cst) : Prop :=
  f_pipe f = false /\ f_reqs f = [] /\ f_closed f = false /\ inv c /\
  (forall n, In n (map p_num (c_in c)) -> n < c_no c).

Lemma nonpipe_write f c ready t code :
  nonpipe_state f c ->
  exists f' c',
    write_op true ready (t, code) f c =
      (match status_result t code with
       | RRaise e => ORaise e
       | RFound t' _ => if t' =? g_CMD_STATUS then ORet else ORaise SFTPErr
       | _ => ORaise SFTPErr
       end, f', c') /\
    f_pipe f' = false /\ f_reqs f' = [] /\ f_closed f' = false.
Proof.
  intros (Hp & Hr & Hc & Hw). destruct (rr_newest c t code Hw) as [e He].
  unfold write_op, async_request. rewrite Hp, Hr.
  cbn [negb orb app fst snd c_no c_exp c_in drain andb].
  assert (M : memz (c_no c) (c_no c :: c_exp c) = true) by (apply memz_In; left; reflexivity).
  rewrite M, He. cbn [negb]. unfold status_result.
  destruct (t =? g_CMD_STATUS) eqn:Et; [destruct (convert_status code)|]; rewrite ?Et; cbn [drain];
    do 2 eexists; (split; [reflexivity|rewrite Hc; auto]).
Qed.

(* so nonpipe_state holds as long as the application has not called set_pipelined(True) *)
Lemma nonpipe_step_write f c ready rp r f' c' :
  nonpipe_state f c -> write_op true ready rp f c = (r, f', c') -> nonpipe_state f' c'.
Proof.
  intros Hs Heq. destruct rp as [t code].
  destruct (nonpipe_write f c ready t code Hs) as (f1 & c1 & E & A & B & C).
  rewrite E in Heq. injection Heq as _ <- <-.
  destruct Hs as (_ & _ & _ & Hw). destruct (write_ok _ _ _ _ _ _ _ Hw E) as [_ [Hi Hf]].
  repeat split; assumption.
Qed.

Lemma nonpipe_rejected_write_raises f c ready code :
  nonpipe_state f c -> code <> g_SFTP_OK ->
  exists e f' c', write_op true ready (g_CMD_STATUS, code) f c = (ORaise e, f', c').
Proof.
  intros Hs Hcode. destruct (nonpipe_write f c ready g_CMD_STATUS code Hs) as [f' [c' [E _]]].
  unfold status_result in E. rewrite Z.eqb_refl in E. unfold convert_status in E.
  rewrite (proj2 (Z.eqb_neq code g_SFTP_OK) Hcode) in E.
  destruct (code =? g_SFTP_EOF); do 3 eexists; exact E.
Qed.
