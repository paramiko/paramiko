(* C04 -- compute_key returns a prefix of the RFC stream K1 || K2 || ... ([rfc_upto]): the loop
   invariant is [kloop_rfc], and the prefix taken does not depend on how far the stream was built
   ([upto_firstn_indep]).  Equal keys for two letters give a collision of the truncated hash.  The
   facts about the letter, size, cipher and MAC tables of Gen/C04_gen.v hold by evaluation. *)
From Coq Require Import ZArith List Bool Lia.
From PV Require Import Bytes ListFacts C39 C04_gen C04.
Import ListNotations.
Open Scope Z_scope.

Lemma py_prefix_nonneg out n :
  0 <= n -> n <= Z.of_nat (length out) -> py_prefix out n = firstn (Z.to_nat n) out.
Proof.
  intros Hn Hle. unfold py_prefix.
  destruct (n <? 0) eqn:E; [lia|].
  rewrite Z.min_l by lia. reflexivity.
Qed.

Lemma add_mpint_raises K e : add_mpint K = Raise e -> e = StructErr.
Proof.
  assert (S : forall s, add_string s = Raise e -> e = StructErr).
  { intros s. unfold add_string, pack_u32. destruct (_ && _); cbn [bind]; congruence. }
  unfold add_mpint. destruct (K =? 0); apply S.
Qed.

Section KDF.
  Variable hash : list Z -> list Z.
  Variable hl : nat.
  Hypothesis hash_len : forall m, length (hash m) = hl.
  Hypothesis hl_pos : (0 < hl)%nat.

  Notation upto := (rfc_upto hash).

  Lemma upto_length pre X sid i : length (upto pre X sid i) = (S i * hl)%nat.
  Proof.
    (* [lia] may use any hypothesis in scope, and what a proof uses becomes a premise of the lemma
       when the section is closed: here and below, the section hypotheses a lemma does not need
       are cleared first *)
    clear hl_pos. induction i as [|i IH].
    - cbn [rfc_upto]. rewrite hash_len. lia.
    - cbn [rfc_upto]. rewrite app_length, IH, hash_len. lia.
  Qed.

  Lemma upto_extend pre X sid i d : exists rest, upto pre X sid (i + d) = upto pre X sid i ++ rest.
  Proof.
    clear hl_pos hash_len. induction d as [|d [rest IH]].
    - exists []. rewrite Nat.add_0_r, app_nil_r. reflexivity.
    - rewrite Nat.add_succ_r. cbn [rfc_upto]. rewrite IH.
      eexists. rewrite <- app_assoc. reflexivity.
  Qed.

  Lemma upto_firstn_indep pre X sid i j n :
    (n <= length (upto pre X sid i))%nat -> (n <= length (upto pre X sid j))%nat ->
    firstn n (upto pre X sid i) = firstn n (upto pre X sid j).
  Proof.
    clear hl_pos hash_len.
    assert (L : forall i j, (i <= j)%nat -> (n <= length (upto pre X sid i))%nat ->
                            firstn n (upto pre X sid j) = firstn n (upto pre X sid i)).
    { intros a b Hab Ha. destruct (upto_extend pre X sid a (b - a)) as [rest E].
      replace (a + (b - a))%nat with b in E by lia.
      rewrite E. apply firstn_app_le, Ha. }
    intros Hi Hj. destruct (Nat.le_ge_cases i j); [symmetry|]; apply L; assumption.
  Qed.

  (* the fuel suffices since every turn adds hl >= 1 bytes *)
  Lemma kloop_rfc pre X sid n j :
    0 <= n <= Z.of_nat (length (upto pre X sid j)) ->
    forall fuel i,
      n <= Z.of_nat fuel + Z.of_nat (length (upto pre X sid i)) ->
      kloop hash fuel pre n (upto pre X sid i) (upto pre X sid i)
      = Ok (firstn (Z.to_nat n) (upto pre X sid j)).
  Proof.
    intros Hj. induction fuel as [|f IH]; intros i Hfuel; cbn [kloop];
      destruct (Z.ltb_spec (Z.of_nat (length (upto pre X sid i))) n) as [Hmore|Hdone].
    2, 4: rewrite py_prefix_nonneg by lia; f_equal; apply upto_firstn_indep; lia.
    - lia.
    - apply (IH (S i)). rewrite upto_length in *. lia.
  Qed.

  Theorem compute_key_rfc K kb H sid X n i :
    add_mpint K = Ok kb -> 0 <= n -> n <= Z.of_nat (S i) * Z.of_nat hl ->
    compute_key hash K H sid X n = Ok (firstn (Z.to_nat n) (upto (kb ++ H) X sid i)).
  Proof.
    intros HK Hn Hi. unfold compute_key. rewrite HK. cbn [bind].
    apply (kloop_rfc (kb ++ H) X sid n i) with (i := 0%nat); [rewrite upto_length|]; lia.
  Qed.

  (* n digests always cover n bytes *)
  Lemma compute_key_ok K kb H sid X n :
    add_mpint K = Ok kb -> 0 <= n ->
    compute_key hash K H sid X n = Ok (firstn (Z.to_nat n) (upto (kb ++ H) X sid (Z.to_nat n))).
  Proof. intros HK Hn. apply compute_key_rfc; [exact HK|exact Hn|nia]. Qed.

  Theorem compute_key_length K kb H sid X n k :
    add_mpint K = Ok kb -> 0 <= n -> compute_key hash K H sid X n = Ok k -> Z.of_nat (length k) = n.
  Proof.
    intros HK Hn E. rewrite (compute_key_ok K kb H sid X n HK Hn) in E.
    injection E as <-. rewrite firstn_length, upto_length. nia.
  Qed.

  Theorem compute_key_raise K H sid X n e :
    add_mpint K = Raise e -> compute_key hash K H sid X n = Raise e.
  Proof. intros HK. unfold compute_key. rewrite HK. reflexivity. Qed.

  Lemma kdf_input_diff pre X Y sid : X <> Y -> kdf_input pre X sid <> kdf_input pre Y sid.
  Proof.
    intros Hxy E. unfold kdf_input in E. apply app_inv_head in E. cbn in E. congruence.
  Qed.

  Lemma kdf_input_letter pre X sid : nth (length pre) (kdf_input pre X sid) 0 = X.
  Proof. clear hash_len hl_pos. unfold kdf_input. rewrite app_nth2 by lia. rewrite Nat.sub_diag. reflexivity. Qed.

  Lemma kdf_input_same_length pre X Y sid : length (kdf_input pre X sid) = length (kdf_input pre Y sid).
  Proof. unfold kdf_input. rewrite !app_length. reflexivity. Qed.

  Lemma compute_key_head K kb H sid X n k :
    add_mpint K = Ok kb -> 0 <= n -> compute_key hash K H sid X n = Ok k ->
    let m := Z.to_nat (Z.min n (Z.of_nat hl)) in
    firstn m k = firstn m (hash (kdf_input (kb ++ H) X sid)).
  Proof.
    intros HK Hn E m. rewrite (compute_key_ok K kb H sid X n HK Hn) in E. injection E as <-.
    rewrite firstn_firstn, Nat.min_l by lia.
    apply (upto_firstn_indep _ _ _ _ 0%nat); rewrite upto_length; lia.
  Qed.

  Theorem equal_keys_collision K kb H sid X Y n k :
    add_mpint K = Ok kb -> X <> Y -> 0 < n ->
    compute_key hash K H sid X n = Ok k -> compute_key hash K H sid Y n = Ok k ->
    let a := kdf_input (kb ++ H) X sid in
    let b := kdf_input (kb ++ H) Y sid in
    let m := Z.to_nat (Z.min n (Z.of_nat hl)) in
    a <> b /\ (0 < m)%nat /\ firstn m (hash a) = firstn m (hash b).
  Proof.
    intros HK Hxy Hn EX EY a b m.
    split; [apply kdf_input_diff; exact Hxy|]. split; [lia|]. subst a b m.
    rewrite <- (compute_key_head K kb H sid X n k HK), <- (compute_key_head K kb H sid Y n k HK)
      by (lia || assumption).
    reflexivity.
  Qed.
End KDF.

Lemma letters_range : forall r d p, 65 <= gen_letter r d p <= 70.
Proof. intros [] [] []; cbn; lia. Qed.

Lemma letters_peer : forall r d p, gen_letter r d p = gen_letter (peer r) (flip d) p.
Proof. intros [] [] []; reflexivity. Qed.

Lemma sizes_peer : forall r d p, gen_size r d p = gen_size (peer r) (flip d) p.
Proof. intros [] [] []; reflexivity. Qed.

Lemma sizes_spec : forall r d p, gen_size r d p = spec_size p.
Proof. intros [] [] []; reflexivity. Qed.

Lemma session_key_peer hash r d p c m K H sid :
  session_key hash r d p c m K H sid = session_key hash (peer r) (flip d) p c m K H sid.
Proof. unfold session_key, requested. rewrite <- letters_peer, <- sizes_peer. reflexivity. Qed.

Lemma letters_injective r d1 p1 d2 p2 :
  gen_letter r d1 p1 = gen_letter r d2 p2 -> d1 = d2 /\ p1 = p2.
Proof. destruct r, d1, p1, d2, p2; (discriminate || (split; reflexivity)). Qed.

Lemma letters_dir_differ r p1 p2 : gen_letter r Inbound p1 <> gen_letter r Outbound p2.
Proof. intros E. apply letters_injective in E as [E _]. discriminate E. Qed.

Lemma requested_sizes r d c m :
  snd (requested r d IV c m) = match c_iv c with Some v => v | None => c_block c end /\
  snd (requested r d EncKey c m) = c_key c /\
  snd (requested r d MacKey c m) = m_digest m.
Proof. unfold requested. cbn [snd]. rewrite !sizes_spec. repeat split. Qed.

(* The boolean checks of the model over the generated tables hold by evaluation.  Their users
   unfold the check in the goal (`generalize X_ok; unfold X`), not in a hypothesis: from there the
   kernel would compare `X` with its `forallb` form by evaluating both, without the VM. *)
Lemma sizes_in_range_ok : sizes_in_range = true.
Proof. vm_compute. reflexivity. Qed.

Lemma mac_digest_ge_size_ok : mac_digest_ge_size = true.
Proof. vm_compute. reflexivity. Qed.

Lemma kex_hashes_positive_ok : kex_hashes_positive = true.
Proof. vm_compute. reflexivity. Qed.

Lemma kex_hashes_match_spec_ok : kex_hashes_match_spec = true.
Proof. vm_compute. reflexivity. Qed.

Lemma tables_match_spec_ok : tables_match_spec = true.
Proof. vm_compute. reflexivity. Qed.

Lemma requested_size_range r d p c m :
  In c gen_ciphers -> In m gen_macs -> 1 <= snd (requested r d p c m) <= 512.
Proof.
  intros Hc Hm. unfold requested. cbn [snd]. rewrite sizes_spec.
  assert (Hp : In p all_purposes) by (destruct p; cbn; tauto).
  generalize sizes_in_range_ok. unfold sizes_in_range. rewrite forallb_forall. intros S.
  specialize (S c Hc). rewrite forallb_forall in S. specialize (S m Hm).
  rewrite forallb_forall in S. specialize (S p Hp). cbn zeta in S. lia.
Qed.

Lemma mac_digest_ge_size_in m : In m gen_macs -> m_size m <= m_digest m.
Proof.
  intros Hm. generalize mac_digest_ge_size_ok. unfold mac_digest_ge_size.
  rewrite forallb_forall. intros S. specialize (S m Hm). lia.
Qed.

Lemma kex_hash_len_range name declared :
  In (name, declared) gen_kex_hashes -> 1 <= kex_hash_len declared <= 64.
Proof.
  intros Hin. generalize kex_hashes_positive_ok. unfold kex_hashes_positive.
  rewrite forallb_forall. intros S. specialize (S _ Hin). cbn [snd] in S. lia.
Qed.

Lemma cipher_spec c :
  In c gen_ciphers ->
  exists k iv b, lookup_name spec_ciphers (c_name c) = Some (k, iv, b) /\
                 c_key c = k /\ c_block c = b /\ match c_iv c with Some v => v | None => c_block c end = iv.
Proof.
  intros Hc. generalize tables_match_spec_ok. unfold tables_match_spec.
  rewrite andb_true_iff, !forallb_forall. intros [_ S]. specialize (S c Hc).
  unfold cipher_matches_spec in S.
  destruct (lookup_name spec_ciphers (c_name c)) as [[[k iv] b]|]; [|discriminate S].
  exists k, iv, b. repeat split; lia.
Qed.

Lemma mac_spec m :
  In m gen_macs ->
  exists dg tg, lookup_name spec_macs (m_name m) = Some (dg, tg) /\ m_digest m = dg /\ m_size m = tg.
Proof.
  intros Hm. generalize tables_match_spec_ok. unfold tables_match_spec.
  rewrite andb_true_iff, !forallb_forall. intros [S _]. specialize (S m Hm).
  unfold mac_matches_spec in S.
  destruct (lookup_name spec_macs (m_name m)) as [[dg tg]|]; [|discriminate S].
  exists dg, tg. repeat split; lia.
Qed.

Lemma toy_hash_len hl m : length (toy_hash hl m) = hl.
Proof.
  unfold toy_hash. generalize (fold_left toy_step m 7) as a. generalize 0 as j.
  induction hl as [|k IH]; intros j a; cbn [toy_out length]; [reflexivity|]. now rewrite IH.
Qed.
