(* C44 -- the loop passes over a run of raising sources and records them (auth_loop_raise); every
   list of sources is such a run, possibly followed by a first source that does not raise
   (first_non_raise), and that one decides the result (auth_loop_spec). *)
From Coq Require Import ZArith List Bool Lia.
From PV Require Import Bytes AuthShape C44_gen C44.
Import ListNotations.
Open Scope Z_scope.

Lemma all_raise_app a b : all_raise (a ++ b) <-> all_raise a /\ all_raise b.
Proof. unfold all_raise. rewrite forallb_app, andb_true_iff. tauto. Qed.

Lemma all_raise_cons x l : all_raise (x :: l) <-> is_raise x = true /\ all_raise l.
Proof. unfold all_raise. cbn [forallb]. apply andb_true_iff. Qed.

Lemma auth_loop_raise pre : forall rest acc,
  all_raise pre -> auth_loop (pre ++ rest) acc = auth_loop rest (acc ++ pre).
Proof.
  induction pre as [|[s o] pre IH]; intros rest acc H; [now rewrite app_nil_r|].
  apply all_raise_cons in H as [Hs Hp]. destruct o as [v|e|e]; try discriminate Hs.
  cbn [app auth_loop]. now rewrite IH, <- app_assoc.
Qed.

Lemma auth_loop_all_raise srcs acc :
  all_raise srcs -> auth_loop srcs acc = AuthFailure (acc ++ srcs).
Proof. intros H. pose proof (auth_loop_raise srcs [] acc H) as E. now rewrite app_nil_r in E. Qed.

Lemma first_non_raise (srcs : list source) :
  all_raise srcs \/
  exists pre x post, srcs = pre ++ x :: post /\ all_raise pre /\ is_raise x = false.
Proof.
  induction srcs as [|x l [IH|(pre & y & post & -> & Hp & Hy)]]; [now left| |].
  - destruct (is_raise x) eqn:E; [left; now apply all_raise_cons|].
    right. exists [], x, l. now repeat split.
  - destruct (is_raise x) eqn:E; right; [|exists [], x, (pre ++ y :: post); now repeat split].
    exists (x :: pre), y, post. split; [reflexivity|]. split; [now apply all_raise_cons | exact Hy].
Qed.

Lemma auth_loop_spec srcs : forall acc,
  (exists pre s v post,
      srcs = pre ++ (s, Returns v) :: post /\ all_raise pre /\
      auth_loop srcs acc = Success (acc ++ pre ++ [(s, Returns v)])) \/
  (all_raise srcs /\ auth_loop srcs acc = AuthFailure (acc ++ srcs)) \/
  (exists pre s e post,
      srcs = pre ++ (s, Escapes e) :: post /\ all_raise pre /\
      auth_loop srcs acc = Propagated e (acc ++ pre) s).
Proof.
  intros acc. destruct (first_non_raise srcs) as [Ha|(pre & [s o] & post & -> & Hp & Hx)].
  - right. left. split; [exact Ha | apply auth_loop_all_raise, Ha].
  - destruct o as [v|e|e]; [left | discriminate Hx | right; right];
      exists pre, s; eexists; exists post; (split; [reflexivity|]; split; [exact Hp|]);
      rewrite auth_loop_raise by exact Hp; cbn [auth_loop]; [now rewrite app_assoc | reflexivity].
Qed.

Lemma result_lists_all srcs ov :
  authenticate srcs = Success ov ->
  exists pre s v post,
    srcs = pre ++ (s, Returns v) :: post /\ all_raise pre /\ ov = pre ++ [(s, Returns v)].
Proof.
  intros H. destruct (auth_loop_spec srcs []) as
      [(pre & s & v & post & E & Hr & Hl)|[(Hr & Hl)|(pre & s & e & post & E & Hr & Hl)]];
    unfold authenticate in H; rewrite Hl in H; try discriminate.
  injection H as <-. exists pre, s, v, post. auto.
Qed.

Lemma auth_loop_g_expected srcs : forall acc,
  auth_loop_g expected_loop_shape srcs acc false = auth_loop srcs acc.
Proof.
  induction srcs as [|[s o] rest IH]; intros acc; [reflexivity|].
  destruct o as [v|e|e]; cbn; [reflexivity | apply IH | reflexivity].
Qed.
