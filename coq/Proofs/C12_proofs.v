(* A type that is [unhandled] falls through the prelude and the ladder to [fallback]
   ([dispatch_unhandled]); the three generated switches then make [fallback] answer UNIMPLEMENTED with
   the packet's sequence number ([receive_unhandled_reply]).  Every statement about single packets
   and streams is an instance of that equation. *)
From Coq Require Import ZArith List Bool Lia.
From PV Require Import Bytes C12_gen C12.
Import ListNotations.
Open Scope Z_scope.

Lemma prelude_lookup_none br p : prelude_lookup br p = None <-> mem p (map fst br) = false.
Proof.
  induction br as [|[t stops] br IH]; cbn; [tauto|].
  destruct (p =? t); [split; discriminate | exact IH].
Qed.

Lemma prelude_lookup_some br p b : prelude_lookup br p = Some b -> mem p (map fst br) = true.
Proof.
  induction br as [|[t stops] br IH]; cbn; [discriminate|].
  destruct (p =? t); [reflexivity|]. intros H. cbn. exact (IH H).
Qed.

Lemma ladder_unhandled st p sq :
  unhandled st p = true -> ladder st p sq = fallback (send_blocked (rekey st)) p sq.
Proof.
  unfold unhandled, ladder.
  intros [[[_ H1]%andb_true_iff H2]%andb_true_iff H3]%andb_true_iff.
  apply negb_true_iff in H1, H2, H3. rewrite H1, H2, H3. reflexivity.
Qed.

Lemma dispatch_unhandled st p sq :
  expected st = [] -> unhandled st p = true ->
  dispatch st p sq = fallback (send_blocked (rekey st)) p sq.
Proof.
  intros He Hu. unfold dispatch. rewrite He, (ladder_unhandled st p sq Hu).
  unfold unhandled, special in Hu.
  destruct (mem p (map fst prelude)) eqn:Hs; [discriminate |].
  apply prelude_lookup_none in Hs. rewrite Hs. reflexivity.
Qed.

(* The generated switches say that both MSG_NAMES lookups (the reader's and the fallback's) tolerate a
   type without a name and that the reply is sent without waiting for clear_to_send.  The next three
   facts hold by evaluating them; with any switch the other way the transport dies on the types
   without a name (C12_example) resp. during a re-key. *)
Lemma reader_ok_any p : reader_ok p = true.
Proof. reflexivity. Qed.

Lemma name_of_any p : name_of p = Ok tt.
Proof. unfold name_of. destruct (mem p msg_names); reflexivity. Qed.

Lemma send_never_blocked rk : send_blocked rk = false.
Proof. reflexivity. Qed.

Lemma fallback_reply p sq :
  0 <= sq < 2 ^ 32 ->
  fallback false p sq = Fallback (if p =? MSG_UNIMPLEMENTED then None
                                  else Some (MSG_UNIMPLEMENTED :: be_encode 4 sq)).
Proof.
  intros Hs. unfold fallback. rewrite name_of_any.
  destruct (p =? MSG_UNIMPLEMENTED); cbn [negb]; [reflexivity|].
  destruct (Z.leb_spec 0 sq), (Z.ltb_spec sq (2 ^ 32)); try lia. reflexivity.
Qed.

Lemma receive_unhandled_reply st p sq :
  expected st = [] -> 0 <= sq < 2 ^ 32 -> unhandled st p = true ->
  receive st p sq = Fallback (if p =? MSG_UNIMPLEMENTED then None
                              else Some (MSG_UNIMPLEMENTED :: be_encode 4 sq)).
Proof.
  intros He Hs Hu. unfold receive.
  rewrite reader_ok_any, (dispatch_unhandled st p sq He Hu), send_never_blocked.
  apply fallback_reply, Hs.
Qed.

Lemma unimplemented st p sq :
  expected st = [] -> 0 <= p < 256 -> 0 <= sq < 2 ^ 32 ->
  unhandled st p = true -> p <> MSG_UNIMPLEMENTED ->
  receive st p sq = Fallback (Some (MSG_UNIMPLEMENTED :: be_encode 4 sq)) /\
  alive (receive st p sq) = true.
Proof.
  intros He _ Hs Hu Hn. rewrite (receive_unhandled_reply st p sq He Hs Hu).
  destruct (Z.eqb_spec p MSG_UNIMPLEMENTED); [contradiction |]. split; reflexivity.
Qed.

Lemma unimpl_unhandled st : unhandled st MSG_UNIMPLEMENTED = true.
Proof.
  unfold unhandled, transport_table, auth_table.
  destruct (srt st), (ah st), (server_mode st); reflexivity.
Qed.

Lemma fallback_unimpl b sq : fallback b MSG_UNIMPLEMENTED sq = Fallback None.
Proof. unfold fallback. rewrite name_of_any. reflexivity. Qed.

Lemma no_reply_to_unimplemented st sq :
  expected st = [] ->
  receive st MSG_UNIMPLEMENTED sq = Fallback None /\ alive (receive st MSG_UNIMPLEMENTED sq) = true.
Proof.
  intros He. unfold receive.
  rewrite reader_ok_any, (dispatch_unhandled st _ sq He (unimpl_unhandled st)), fallback_unimpl.
  split; reflexivity.
Qed.

Lemma never_answers_unimplemented st sq m :
  receive st MSG_UNIMPLEMENTED sq <> Fallback (Some m).
Proof.
  unfold receive, dispatch.
  rewrite (ladder_unhandled st _ sq (unimpl_unhandled st)), fallback_unimpl.
  destruct (reader_ok MSG_UNIMPLEMENTED); [| discriminate].
  destruct (prelude_lookup prelude MSG_UNIMPLEMENTED) as [[|]|]; try discriminate.
  destruct (expected st); [discriminate |].
  destruct (negb (mem MSG_UNIMPLEMENTED _)); [discriminate |].
  destruct (_ && _); discriminate.
Qed.

Lemma next_seq_range sq : 0 <= next_seq sq < 2 ^ 32.
Proof. unfold next_seq. apply Z.mod_pos_bound. reflexivity. Qed.

Lemma stream_any st pkts : forall sq,
  expected st = [] -> 0 <= sq < 2 ^ 32 ->
  Forall (fun p => unhandled st p = true) pkts ->
  run_stream st sq pkts = (expected_replies sq pkts, true).
Proof.
  induction pkts as [|p r IH]; intros sq He Hs Hall; [reflexivity|].
  inversion Hall as [|? ? Hu Hr]; subst.
  cbn [run_stream expected_replies].
  rewrite (receive_unhandled_reply st p sq He Hs Hu).
  rewrite (IH (next_seq sq) He (next_seq_range sq) Hr).
  destruct (p =? MSG_UNIMPLEMENTED); reflexivity.
Qed.

Lemma stream st pkts : forall sq,
  expected st = [] -> 0 <= sq < 2 ^ 32 ->
  Forall (fun p => 0 <= p < 256 /\ unhandled st p = true) pkts ->
  run_stream st sq pkts = (expected_replies sq pkts, true).
Proof.
  intros sq He Hs Hall. apply stream_any; [exact He | exact Hs |].
  apply (Forall_impl _ (fun p H => proj2 H) Hall).
Qed.

(* non-vacuity, and the defect repaired by fixes/C12-msg-names-keyerror.diff: in every state some type
   has neither a handler nor a debug name; 8 is the one the real transport was seen to die on *)
Lemma unnamed_unhandled st :
  exists p, 0 <= p < 256 /\ unhandled st p = true /\ mem p msg_names = false.
Proof.
  exists 8. split; [lia |]. split; [| reflexivity].
  unfold unhandled, transport_table, auth_table.
  destruct (srt st), (ah st), (server_mode st); reflexivity.
Qed.
