(* C01 / C02 proofs over Model/C01.v.
   read_body and read_message are built from rtake, rret, rfail, rlift and rbind only (Section
   Built), so two facts hold of them by construction: over any socket model that refines ftake they
   compute what the flat reader computes (Section Sim: chunked sockets, sockets with timeouts), and
   over the flat byte stream they depend only on the bytes they consume (Section Mono).  The round trip of one message
   is composed from one lemma per framing mode about the reader on a buffer that holds what it asks
   for (Section RT); sessions follow by induction on the list of operations. *)
From PV Require Import Bytes ListFacts C01.
From Coq Require Import ZArith List Bool Lia.
Import ListNotations.
Open Scope Z_scope.

Lemma zlen_app a b : zlen (a ++ b) = zlen a + zlen b.
Proof. unfold zlen. rewrite app_length. lia. Qed.
Lemma zlen_cons x l : zlen (x :: l) = 1 + zlen l.
Proof. unfold zlen. cbn [length]. lia. Qed.
Lemma zlen_nil : zlen [] = 0. Proof. reflexivity. Qed.
Lemma zlen_nonneg l : 0 <= zlen l. Proof. unfold zlen. lia. Qed.
Lemma zlen_be n v : zlen (be_encode n v) = Z.of_nat n.
Proof. unfold zlen. now rewrite be_encode_length. Qed.
Lemma zlen_repeat (x : Z) n : zlen (repeat x n) = Z.of_nat n.
Proof. unfold zlen. now rewrite repeat_length. Qed.

Lemma firstn_zlen_app (a b : list Z) n : zlen a = n -> firstn (Z.to_nat n) (a ++ b) = a.
Proof. intros <-. unfold zlen. rewrite Nat2Z.id. apply firstn_app_exact. Qed.
Lemma skipn_zlen_app (a b : list Z) n : zlen a = n -> skipn (Z.to_nat n) (a ++ b) = b.
Proof. intros <-. unfold zlen. rewrite Nat2Z.id. apply skipn_app_exact. Qed.

Lemma split_at (l : list Z) (n : Z) :
  0 <= n <= zlen l -> exists a b, l = a ++ b /\ zlen a = n.
Proof.
  intros H. exists (firstn (Z.to_nat n) l), (skipn (Z.to_nat n) l). split.
  - now rewrite firstn_skipn.
  - unfold zlen in *. rewrite firstn_length. lia.
Qed.

Lemma be4_roundtrip size : 0 <= size < 2 ^ 32 -> be_decode (be_encode 4 size) = size.
Proof. intros H. apply be_decode_encode. change (256 ^ Z.of_nat 4) with (2 ^ 32). exact H. Qed.
Lemma firstn4_be v l : firstn 4 (be_encode 4 v ++ l) = be_encode 4 v.
Proof. exact (firstn_zlen_app _ l 4 (zlen_be 4 v)). Qed.
Lemma skipn4_be v l : skipn 4 (be_encode 4 v ++ l) = l.
Proof. exact (skipn_zlen_app _ l 4 (zlen_be 4 v)). Qed.

Lemma xor_acc_zero : forall a b res, length a = length b ->
  (xor_acc res a b = 0 <-> res = 0 /\ a = b).
Proof.
  induction a as [|x a IH]; intros [|y b] res L; cbn in *; try discriminate.
  - tauto.
  - rewrite IH by lia. rewrite Z.lor_eq_0_iff, Z.lxor_eq_0_iff. split.
    + intros [[-> ->] ->]. auto.
    + intros [-> E]. injection E as -> ->. auto.
Qed.

Lemma cteq_iff a b : constant_time_bytes_eq a b = true <-> a = b.
Proof.
  unfold constant_time_bytes_eq. destruct (Nat.eqb (length a) (length b)) eqn:E; cbn [negb].
  - apply Nat.eqb_eq in E. rewrite Z.eqb_eq, xor_acc_zero by exact E. tauto.
  - apply Nat.eqb_neq in E. split; [discriminate|]. intros ->. now elim E.
Qed.

Lemma cteq_refl a : constant_time_bytes_eq a a = true.
Proof. now apply cteq_iff. Qed.

Lemma ftake_inv n buf x rest : ftake n buf = Some (x, rest) ->
  buf = x ++ rest /\ zlen x = Z.max 0 n.
Proof.
  unfold ftake. destruct (n <=? 0) eqn:E1.
  - intros H. injection H as <- <-. split; [reflexivity|]. rewrite zlen_nil. lia.
  - destruct (zlen buf <? n) eqn:E2; [discriminate|]. intros H. injection H as <- <-.
    rewrite firstn_skipn. split; [reflexivity|]. unfold zlen in *. rewrite firstn_length. lia.
Qed.

Lemma ftake_exact n x rest : zlen x = Z.max 0 n -> ftake n (x ++ rest) = Some (x, rest).
Proof.
  intros H. unfold ftake. destruct (n <=? 0) eqn:E1.
  - destruct x; [reflexivity|]. rewrite zlen_cons in H. pose proof (zlen_nonneg x). lia.
  - rewrite zlen_app. pose proof (zlen_nonneg rest).
    destruct (zlen x + zlen rest <? n) eqn:E2; [lia|].
    rewrite firstn_zlen_app, skipn_zlen_app by lia. reflexivity.
Qed.

Lemma ftake_short n buf : 0 < n -> zlen buf < n -> ftake n buf = None.
Proof.
  intros H1 H2. unfold ftake. destruct (n <=? 0) eqn:E1; [lia|].
  destruct (zlen buf <? n) eqn:E2; [reflexivity|lia].
Qed.

Lemma ftake_none_inv n buf : ftake n buf = None -> 0 < n /\ zlen buf < n.
Proof.
  unfold ftake. destruct (n <=? 0) eqn:E1; [discriminate|].
  destruct (zlen buf <? n) eqn:E2; [lia|discriminate].
Qed.

(* sockets on which recv never returns b"", which read_all takes for EOF *)
Definition ne (s : list (list Z)) : Prop := Forall (fun c => c <> []) s.
Definition ne_t (s : list sev) : Prop :=
  Forall (fun e => match e with SData c => c <> [] | STimeout => True end) s.

Lemma read_all_t_spec : forall sock n out ck nr, ne_t sock ->
  match read_all_t n out ck nr sock with
  | RAok x s' => exists y, x = out ++ y /\ ftake n (sdata sock) = Some (y, sdata s') /\ ne_t s'
  | RAeof => ftake n (sdata sock) = None
  | RArekey s' => ck = true /\ nr = true /\ out = [] /\ sdata s' = sdata sock /\ ne_t s'
  end.
Proof.
  induction sock as [|e rest IH]; intros n out ck nr Hne; cbn [read_all_t];
    (destruct (n <=? 0) eqn:E; [exists []; rewrite app_nil_r; unfold ftake; rewrite E; auto|]).
  - cbn [sdata]. apply ftake_short; [lia|rewrite zlen_nil; lia].
  - inversion Hne as [|? ? Hc Hrest]; subst. destruct e as [c|]; cbn [sdata].
    + destruct c as [|c0 c']; [congruence|]. set (c := c0 :: c') in *.
      destruct (zlen c <=? n) eqn:E2.
      * specialize (IH (n - zlen c) (out ++ c) ck nr Hrest).
        destruct (read_all_t (n - zlen c) (out ++ c) ck nr rest) as [x s'| |s'].
        -- destruct IH as (y & -> & Ht & Hn). exists (c ++ y). rewrite app_assoc. split; [reflexivity|].
           split; [|exact Hn]. apply ftake_inv in Ht as [Hc1 Hc2]. rewrite Hc1, app_assoc.
           apply ftake_exact. rewrite zlen_app. lia.
        -- apply ftake_none_inv in IH. apply ftake_short; rewrite ?zlen_app; lia.
        -- (* a re-key is only signalled while out = [], and out ++ c is not *)
           destruct IH as (_ & _ & Hout & _). destruct out; discriminate.
      * exists (firstn (Z.to_nat n) c). split; [reflexivity|]. split.
        -- rewrite <- (firstn_skipn (Z.to_nat n) c) at 1. rewrite <- app_assoc.
           apply ftake_exact. unfold zlen in *. rewrite firstn_length. lia.
        -- constructor; [|exact Hrest]. intros Hs.
           assert (L : length (skipn (Z.to_nat n) c) = 0%nat) by now rewrite Hs.
           rewrite skipn_length in L. unfold zlen in *. lia.
    + destruct (ck && Nat.eqb (length out) 0 && nr) eqn:G.
      * apply andb_true_iff in G as [G ->]. apply andb_true_iff in G as [-> G].
        apply Nat.eqb_eq in G. destruct out; [|discriminate]. auto.
      * apply IH, Hrest.
Qed.

Lemma read_all_as_t : forall sock n out ck nr,
  read_all_t n out ck nr (map SData sock) =
  match read_all n out sock with Some (x, s') => RAok x (map SData s') | None => RAeof end.
Proof.
  induction sock as [|c rest IH]; intros n out ck nr; cbn [read_all read_all_t map].
  - now destruct (n <=? 0).
  - destruct (n <=? 0); [reflexivity|]. destruct c as [|c0 c']; [reflexivity|].
    destruct (zlen (c0 :: c') <=? n); [apply IH|reflexivity].
Qed.
Lemma sdata_map sock : sdata (map SData sock) = concat sock.
Proof. induction sock as [|c rest IH]; cbn; congruence. Qed.
Lemma ne_t_map sock : ne_t (map SData sock) <-> ne sock.
Proof. unfold ne_t. now rewrite Forall_map. Qed.

Lemma read_all_spec : forall sock n out, ne sock ->
  match read_all n out sock with
  | Some (x, sock') => exists y, x = out ++ y /\ ftake n (concat sock) = Some (y, concat sock') /\ ne sock'
  | None => ftake n (concat sock) = None
  end.
Proof.
  intros sock n out H. apply ne_t_map in H.
  pose proof (read_all_t_spec _ n out false false H) as R. rewrite read_all_as_t, sdata_map in R.
  destruct (read_all n out sock) as [[x s']|]; [|exact R].
  destruct R as (y & -> & Ht & Hn). rewrite sdata_map in Ht. apply ne_t_map in Hn. eauto.
Qed.

Lemma stake_spec : forall n s, ne s ->
  match stake n s with
  | Some (x, s') => ftake n (concat s) = Some (x, concat s') /\ ne s'
  | None => ftake n (concat s) = None
  end.
Proof.
  intros n s H. unfold stake. pose proof (read_all_spec s n [] H) as R.
  destruct (read_all n [] s) as [[x s']|]; [|exact R].
  destruct R as (y & -> & Ht & Hn). auto.
Qed.

Lemma ttake_spec : forall n s, ne_t s ->
  match ttake n s with
  | Some (x, s') => ftake n (sdata s) = Some (x, sdata s') /\ ne_t s'
  | None => ftake n (sdata s) = None
  end.
Proof.
  intros n s H. unfold ttake. pose proof (read_all_t_spec s n [] false false H) as R.
  destruct (read_all_t n [] false false s) as [x s'| |s'].
  - destruct R as (y & -> & Ht & Hn). auto.
  - exact R.
  - destruct R as (R & _). discriminate.
Qed.

Section Built.
Variable P : prims.
Variables S1 S2 : Type.
Variable tk1 : Z -> S1 -> option (list Z * S1).
Variable tk2 : Z -> S2 -> option (list Z * S2).
Variable R : forall A, reader S1 A -> reader S2 A -> Prop.
Hypothesis R_ret : forall A (a : A), R A (rret S1 a) (rret S2 a).
Hypothesis R_fail : forall A e, R A (rfail S1 e) (rfail S2 e).
Hypothesis R_take : forall n, R _ (rtake S1 tk1 n) (rtake S2 tk2 n).
Hypothesis R_bind : forall A B m1 m2 f1 f2,
  R A m1 m2 -> (forall a, R B (f1 a) (f2 a)) -> R B (rbind S1 m1 f1) (rbind S2 m2 f2).

Lemma rlift_built A (x : result A) : R A (rlift S1 x) (rlift S2 x).
Proof. destruct x; [apply R_ret|apply R_fail]. Qed.

Lemma read_body_built r h : R _ (read_body P S1 tk1 r h) (read_body P S2 tk2 r h).
Proof.
  unfold read_body, read_classic. cbv beta iota zeta.
  repeat first
    [ apply R_take | apply R_ret | apply R_fail | apply rlift_built
    | apply R_bind; [| intros ?]
    | match goal with
      | |- R _ (if ?c then _ else _) (if ?c then _ else _) => destruct c
      | |- R _ (match ?x with _ => _ end) (match ?x with _ => _ end) => destruct x
      end ].
Qed.

Lemma read_message_built r : R _ (read_message P S1 tk1 r) (read_message P S2 tk2 r).
Proof. unfold read_message. apply R_bind; [apply R_take|apply read_body_built]. Qed.
End Built.

(* tk is a socket model, alpha s the bytes socket s will deliver *)
Section Sim.
Variable P : prims.
Variable SS : Type.
Variable tk : Z -> SS -> option (list Z * SS).
Variable alpha : SS -> list Z.
Variable good : SS -> Prop.
Hypothesis Htk : forall n s, good s ->
  match tk n s with
  | Some (x, s') => ftake n (alpha s) = Some (x, alpha s') /\ good s'
  | None => ftake n (alpha s) = None
  end.
Notation FS := (list Z).

Definition srel {A} (x : rr SS A) (y : rr FS A) : Prop :=
  match x with
  | Need => y = Need
  | Fail e => y = Fail e
  | Done a s' => y = Done a (alpha s') /\ good s'
  end.
Definition sim {A} (m1 : reader SS A) (m2 : reader FS A) : Prop :=
  forall s, good s -> srel (m1 s) (m2 (alpha s)).

Lemma sim_ret A (a : A) : sim (rret SS a) (rret FS a).
Proof. intros s H. cbn. auto. Qed.
Lemma sim_fail A e : sim (@rfail SS A e) (@rfail FS A e).
Proof. intros s H. reflexivity. Qed.
Lemma sim_take n : sim (rtake SS tk n) (rtake FS ftake n).
Proof.
  intros s H. unfold rtake. pose proof (Htk n s H) as R.
  destruct (tk n s) as [[x s']|].
  - destruct R as [-> Hn]. cbn. auto.
  - rewrite R. reflexivity.
Qed.
Lemma sim_bind A B (m1 : reader SS A) m2 (f1 : A -> reader SS B) f2 :
  sim m1 m2 -> (forall a, sim (f1 a) (f2 a)) -> sim (rbind SS m1 f1) (rbind FS m2 f2).
Proof.
  intros Hm Hf s H. unfold rbind. specialize (Hm s H). unfold srel in Hm.
  destruct (m1 s) as [| e | a s'].
  - now rewrite Hm.
  - now rewrite Hm.
  - destruct Hm as [-> Hn]. apply Hf, Hn.
Qed.

Lemma sim_read_body r h : sim (read_body P SS tk r h) (read_body P FS ftake r h).
Proof. exact (read_body_built P SS FS tk ftake (@sim) sim_ret sim_fail sim_take sim_bind r h). Qed.

Lemma sim_read_message r : sim (read_message P SS tk r) (read_message P FS ftake r).
Proof. exact (read_message_built P SS FS tk ftake (@sim) sim_ret sim_fail sim_take sim_bind r). Qed.

Lemma sim_read_many : forall fuel r s, good s ->
  let '(ps, evs, fi, rf, sf) := read_many P SS tk fuel r s in
  read_many P FS ftake fuel r (alpha s) = (ps, evs, fi, rf, alpha sf).
Proof.
  induction fuel as [|f IH]; intros r s H; cbn [read_many]; [reflexivity|].
  pose proof (sim_read_message r s H) as R. unfold srel in R.
  destruct (read_message P SS tk r s) as [| e | [[p ev] r'] s'].
  - now rewrite R.
  - now rewrite R.
  - destruct R as [-> Hn]. specialize (IH r' s' Hn).
    destruct (read_many P SS tk f r' s') as [[[[ps evs] fi] rf] sf]. now rewrite IH.
Qed.
End Sim.

Lemma chunked_equals_flat P fuel (r : pstate P) (s : list (list Z)) :
  ne s ->
  let '(ps, evs, fi, rf, sf) := read_many P (list (list Z)) stake fuel r s in
  read_many P (list Z) ftake fuel r (concat s) = (ps, evs, fi, rf, concat sf).
Proof. apply (sim_read_many P _ stake (@concat Z) ne stake_spec). Qed.

Section Timeouts.
Variable P : prims.
Notation FS := (list Z).

Lemma read_message_t_spec nr r s : ne_t s ->
  match read_message_t P nr r s with
  | TRekey s' => sdata s' = sdata s /\ ne_t s'          (* nothing was consumed *)
  | TOther x => srel (list sev) sdata ne_t x (read_message P FS ftake r (sdata s))
  end.
Proof.
  intros H. unfold read_message_t. pose proof (read_all_t_spec s (p_bs r) [] true nr H) as R.
  destruct (read_all_t (p_bs r) [] true nr s) as [h s'| |s'].
  - destruct R as (y & -> & Ht & Hn). cbn [app]. unfold read_message, rbind, rtake. rewrite Ht.
    apply (sim_read_body P (list sev) ttake sdata ne_t ttake_spec r y s' Hn).
  - unfold read_message, rbind, rtake. rewrite R. reflexivity.
  - destruct R as (_ & _ & _ & E & Hn). auto.
Qed.

Lemma read_many_fuel_mono : forall f r s ps evs fi rf sf,
  read_many P FS ftake f r s = (ps, evs, fi, rf, sf) -> fi <> FFuel ->
  forall f2, (f <= f2)%nat -> read_many P FS ftake f2 r s = (ps, evs, fi, rf, sf).
Proof.
  induction f as [|f IH]; intros r s ps evs fi rf sf H Hfi f2 Hle.
  - cbn in H. injection H as _ _ <- _ _. congruence.
  - destruct f2 as [|f2]; [lia|]. cbn [read_many] in *.
    destruct (read_message P FS ftake r s) as [| e | [[p ev] r'] s']; try exact H.
    destruct (read_many P FS ftake f r' s') as [[[[ps1 evs1] fi1] rf1] sf1] eqn:E.
    injection H as <- <- <- <- <-.
    rewrite (IH r' s' ps1 evs1 fi1 rf1 sf1 E Hfi f2 ltac:(lia)). reflexivity.
Qed.

(* the run loop against the flat reader with the same fuel: where the loop notes a re-key the flat
   reader makes no step, so it has fuel to spare *)
Lemma read_many_t_flat : forall fuel nr r s, ne_t s ->
  let '(ps, evs, k, fi, rf, sf) := read_many_t P nr fuel r s in
  fi <> FFuel -> read_many P FS ftake fuel r (sdata s) = (ps, evs, fi, rf, sdata sf).
Proof.
  induction fuel as [|f IH]; intros nr r s H; cbn [read_many_t].
  - intros Hfi. congruence.
  - pose proof (read_message_t_spec nr r s H) as R.
    destruct (read_message_t P nr r s) as [s'|x].
    + destruct R as [E Hn]. specialize (IH nr r s' Hn).
      destruct (read_many_t P nr f r s') as [[[[[ps evs] k] fi] rf] sf].
      intros Hfi. rewrite <- E. apply (read_many_fuel_mono f); [apply IH, Hfi|exact Hfi|lia].
    + unfold srel in R. cbn [read_many]. destruct x as [| e | [[p ev] r'] s'].
      * now rewrite R.
      * now rewrite R.
      * destruct R as [R Hn]. specialize (IH nr r' s' Hn). rewrite R.
        destruct (read_many_t P nr f r' s') as [[[[[ps evs] k] fi] rf] sf].
        intros Hfi. now rewrite (IH Hfi).
Qed.
End Timeouts.

Section Mono.
Variable P : prims.
Notation FS := (list Z).

Definition mono {A} (m : reader FS A) : Prop :=
  forall buf a rest, m buf = Done a rest ->
    exists c, buf = c ++ rest /\ (forall rest', m (c ++ rest') = Done a rest') /\
              (forall q, strict_prefix q c -> m q = Need).

Lemma strict_prefix_app : forall (c1 c2 q : list Z), strict_prefix q (c1 ++ c2) ->
  strict_prefix q c1 \/ exists q2, q = c1 ++ q2 /\ strict_prefix q2 c2.
Proof.
  induction c1 as [|x c1 IH]; intros c2 q [t [Ht E]].
  - right. exists q. split; [reflexivity|]. exists t. auto.
  - destruct q as [|y q].
    + left. exists (x :: c1). split; [discriminate|reflexivity].
    + cbn in E. injection E as <- E. destruct (IH c2 q) as [[t' [Ht' ->]] | (q2 & -> & Hq2)].
      * exists t. auto.
      * left. exists t'. split; [exact Ht'|reflexivity].
      * right. exists q2. auto.
Qed.

Lemma mono_ret A (a : A) : mono (rret FS a).
Proof.
  intros buf a' rest H. injection H as <- <-. exists []. split; [reflexivity|]. split; [reflexivity|].
  intros q [t [Ht E]]. destruct q; destruct t; cbn in E; congruence.
Qed.
Lemma mono_fail A e : mono (@rfail FS A e).
Proof. intros buf a rest H. discriminate. Qed.
Lemma mono_take n : mono (rtake FS ftake n).
Proof.
  intros buf x rest H. unfold rtake in *. destruct (ftake n buf) as [[x' r']|] eqn:E; [|discriminate].
  injection H as <- <-. apply ftake_inv in E as [-> Hl]. exists x'. split; [reflexivity|]. split.
  - intros rest'. now rewrite ftake_exact.
  - intros q [t [Ht ->]]. rewrite zlen_app in Hl.
    assert (0 < zlen t) by (destruct t; [congruence|rewrite zlen_cons; pose proof (zlen_nonneg t); lia]).
    pose proof (zlen_nonneg q). rewrite ftake_short by lia. reflexivity.
Qed.
Lemma mono_bind A B (m : reader FS A) (f : A -> reader FS B) :
  mono m -> (forall a, mono (f a)) -> mono (rbind FS m f).
Proof.
  intros Hm Hf buf b rest H. unfold rbind in H.
  destruct (m buf) as [| e | a r1] eqn:E; try discriminate.
  destruct (Hm _ _ _ E) as (c1 & -> & X1 & N1).
  destruct (Hf a _ _ _ H) as (c2 & -> & X2 & N2).
  exists (c1 ++ c2). split; [now rewrite app_assoc|]. split.
  - intros rest'. unfold rbind. rewrite <- app_assoc, X1. apply X2.
  - intros q Hq. unfold rbind. apply strict_prefix_app in Hq as [Hq | (q2 & -> & Hq2)].
    + now rewrite (N1 _ Hq).
    + rewrite X1. apply N2, Hq2.
Qed.

(* mono is a property of one reader: the second is ignored *)
Lemma mono_read_message r : mono (read_message P FS ftake r).
Proof.
  exact (read_message_built P FS FS ftake ftake (fun A m _ => mono m) mono_ret mono_fail mono_take
           (fun A B m _ f _ => mono_bind A B m f) r).
Qed.
End Mono.

Lemma pad_range bs x : 0 < bs -> 4 <= 3 + bs - x mod bs <= bs + 3.
Proof. intros H. pose proof (Z.mod_pos_bound x bs H). lia. Qed.
Lemma pad_align bs x : 0 < bs -> (x + (bs - x mod bs)) mod bs = 0.
Proof.
  intros H. rewrite (Z.div_mod x bs) at 1 by lia.
  replace (bs * (x / bs) + x mod bs + (bs - x mod bs)) with ((x / bs + 1) * bs) by ring.
  apply Z_mod_mult.
Qed.
Lemma pad_ge bs x : 0 < bs -> 0 <= x -> bs <= x + (bs - x mod bs).
Proof. intros H H0. pose proof (Z.mod_le x bs H0 H). lia. Qed.

Lemma py_slice1_body x data pad e : e = zlen data + 1 -> py_slice1 (x :: data ++ pad) e = data.
Proof.
  intros ->. unfold py_slice1. rewrite zlen_cons, zlen_app.
  pose proof (zlen_nonneg data). pose proof (zlen_nonneg pad).
  destruct (zlen data + 1 <? 0) eqn:E; [lia|].
  replace (Z.min (zlen data + 1) (1 + (zlen data + zlen pad))) with (zlen data + 1) by lia.
  replace (Z.to_nat (zlen data + 1)) with (S (length data)) by (unfold zlen; lia).
  cbn [firstn skipn]. now rewrite firstn_app_exact.
Qed.

Section RT.
Variable P : prims.
Variable cinv : Z -> cst P -> cst P -> Prop.
Variable zinv : zst P -> zst P -> Prop.
Hypothesis HP : prims_ok P cinv zinv.
Notation FS := (list Z).

Definition comp_step (zs : option (zst P)) (data : list Z) : list Z * option (zst P) :=
  match zs with
  | None => (data, None)
  | Some z => (fst (z_comp P z data), Some (snd (z_comp P z data)))
  end.

Definition rollover (seq : Z) (kex : bool) : bool := ((seq + 1) mod 2 ^ 32 =? 0) && negb kex.

Lemma send_message_inv s data rnd w s' :
  send_message P s data rnd = Ok (w, s') ->
  exists packet m',
    build_packet P s (fst (comp_step (p_z s) data)) rnd = Ok packet /\
    encrypt_packet P s packet = Ok (w, m') /\
    rollover (p_seq s) (p_kex s) = false /\
    s' = with_mode_seq_z P s m' ((p_seq s + 1) mod 2 ^ 32) (snd (comp_step (p_z s) data)).
Proof.
  intros H. unfold send_message in H. destruct data as [|d0 dt]; [discriminate|].
  unfold comp_step, rollover.
  destruct (p_z s) as [z|]; [destruct (z_comp P z (d0 :: dt)) as [d z2]|]; cbn [fst snd].
  all: apply bind_ok in H as (packet & Hb & H); apply bind_ok in H as ([out m'] & He & H).
  all: cbn [fst snd] in H; destruct (((p_seq s + 1) mod 2 ^ 32 =? 0) && negb (p_kex s)); [discriminate|].
  all: injection H as <- <-; exists packet, m'; auto.
Qed.

Lemma pad_bytes_facts s padding rnd : 0 <= padding -> bytes_ok rnd = true ->
  zlen (pad_bytes P s padding rnd) = padding /\ bytes_ok (pad_bytes P s padding rnd) = true.
Proof.
  intros H0 Hr. unfold pad_bytes. destruct (p_sdctr s || is_plain P (p_mode s)).
  - rewrite zlen_repeat. split; [lia|]. now apply bytes_ok_repeat.
  - split.
    + unfold zlen. rewrite firstn_length, app_length, repeat_length. lia.
    + apply bytes_ok_firstn. rewrite bytes_ok_app, Hr. now apply bytes_ok_repeat.
Qed.

(* size + (addlen - 4) is the length of the part that is encrypted: everything in cleartext and
   classic mode, all but the length field in ETM and AEAD *)
Lemma build_packet_inv s data rnd packet :
  8 <= p_bs s -> bytes_ok data = true -> bytes_ok rnd = true ->
  build_packet P s data rnd = Ok packet ->
  exists padding pad size,
    packet = be_encode 4 size ++ (padding :: data ++ pad) /\ size = zlen data + padding + 1 /\
    zlen (padding :: data ++ pad) = size /\ 0 <= size < 2 ^ 32 /\
    bytes_ok (padding :: data ++ pad) = true /\
    (size + (addlen P (p_mode s) - 4)) mod p_bs s = 0 /\
    p_bs s <= size + (addlen P (p_mode s) - 4).
Proof.
  intros Hbs Hd Hr H. unfold build_packet in H.
  set (padding := padding_len P (p_bs s) (p_mode s) (zlen data)) in *.
  destruct ((0 <=? padding) && (padding <? 256) && (zlen data + padding + 1 <? 2 ^ 32)) eqn:G; [|discriminate].
  injection H as <-.
  apply andb_true_iff in G as [G G3]. apply andb_true_iff in G as [G1 G2].
  pose proof (zlen_nonneg data) as Hn.
  assert (Ha : 0 <= addlen P (p_mode s)) by (destruct (p_mode s); cbn; lia).
  assert (Hpr : 4 <= padding <= p_bs s + 3) by (apply pad_range; lia).
  destruct (pad_bytes_facts s padding rnd ltac:(lia) Hr) as [Hl Hb].
  exists padding, (pad_bytes P s padding rnd), (zlen data + padding + 1).
  split; [reflexivity|]. split; [reflexivity|].
  split; [rewrite zlen_cons, zlen_app; lia|]. split; [lia|]. split.
  - rewrite bytes_ok_cons, bytes_ok_app, Hd, Hb. cbn [andb]. rewrite andb_true_r. apply byte_ok_iff. lia.
  - unfold padding, padding_len.
    replace (zlen data + (3 + p_bs s - (zlen data + addlen P (p_mode s)) mod p_bs s) + 1 + (addlen P (p_mode s) - 4))
      with ((zlen data + addlen P (p_mode s)) + (p_bs s - (zlen data + addlen P (p_mode s)) mod p_bs s)) by ring.
    split; [apply pad_align; lia|apply pad_ge; lia].
Qed.

Lemma comp_step_bytes zs data : bytes_ok data = true -> bytes_ok (fst (comp_step zs data)) = true.
Proof. intros H. destruct zs; cbn; [now apply (comp_bytes _ _ _ HP)|exact H]. Qed.

Lemma finish_honest r m' padding pad data zs ev :
  bytes_ok data = true -> data <> [] ->
  z_sync zinv zs (p_z r) -> rollover (p_seq r) (p_kex r) = false ->
  exists zr',
    finish P r m' (zlen (fst (comp_step zs data)) + padding + 1)
           (padding :: fst (comp_step zs data) ++ pad) ev
    = Ok (data, ev, with_mode_seq_z P r m' ((p_seq r + 1) mod 2 ^ 32) zr') /\
    z_sync zinv (snd (comp_step zs data)) zr'.
Proof.
  intros Hb Hne Hz Hro. unfold finish. rewrite py_slice1_body by ring.
  unfold rollover in Hro.
  destruct zs as [z|]; destruct (p_z r) as [zr|]; cbn in Hz; try contradiction; cbn [comp_step fst snd].
  - destruct (decomp_comp _ _ _ HP z zr data Hz Hb) as (zd' & E & Hi). rewrite E. cbn [bind fst snd].
    rewrite Hro. destruct data; [congruence|]. exists (Some zd'). split; [reflexivity|exact Hi].
  - cbn [bind fst snd]. rewrite Hro. destruct data; [congruence|]. exists None. split; [reflexivity|exact I].
Qed.

(* on a buffer that holds what it asks for, the reader is a chain of these, and what remains is
   `finish` on the reassembled packet *)
Lemma rbind_take A n x tl (f : list Z -> reader FS A) :
  zlen x = n -> rbind FS (rtake FS ftake n) f (x ++ tl) = f x tl.
Proof.
  intros H. unfold rbind, rtake. now rewrite ftake_exact by (pose proof (zlen_nonneg x); lia).
Qed.

Lemma read_classic_exact r header dec dec2 size l o2 t m' tag tl :
  dec header = (be_encode 4 size ++ l, dec2) -> 0 <= size < 2 ^ 32 ->
  zlen l = p_bs r - 4 -> (size + 4) mod p_bs r = 0 ->
  zlen o2 = size - zlen l -> dec2 o2 = (t, m') -> zlen tag = p_msz r ->
  (0 < p_msz r -> exists c k, p_mode r = Classic c k /\
                  tag = mac_tag P k (p_msz r) (mac_input (p_seq r) size (l ++ t))) ->
  read_classic P FS ftake r header dec (o2 ++ tag ++ tl) =
  rlift FS (finish P r m' size (l ++ t)
              (if 0 <? p_msz r then EvMac (mac_input (p_seq r) size (l ++ t)) tag else EvNone)) tl.
Proof.
  intros Hdec Hsz Hl Hal Ho2 Hdec2 Htag Hmac.
  unfold read_classic. cbv zeta. rewrite Hdec. cbv beta iota.
  rewrite firstn4_be, skipn4_be, be4_roundtrip by exact Hsz.
  replace ((size - zlen l) mod p_bs r) with 0.
  2:{ rewrite Hl. replace (size - (p_bs r - 4)) with (size + 4 - p_bs r) by ring.
      now rewrite Zminus_mod, Hal, Z_mod_same_full. }
  cbn [Z.eqb negb]. rewrite app_assoc, rbind_take by (rewrite zlen_app; lia).
  cbv beta zeta. rewrite firstn_zlen_app, skipn_zlen_app, Hdec2 by exact Ho2.
  destruct (0 <? p_msz r) eqn:Em; [|reflexivity].
  destruct Hmac as (c & k & -> & Ht); [lia|].
  rewrite firstn_all2, <- Ht, cteq_refl by (unfold zlen in Htag; lia). reflexivity.
Qed.

Lemma read_plain r size body tl :
  p_mode r = Plain -> p_msz r = 0 -> 0 <= size < 2 ^ 32 -> zlen body = size ->
  (size + 4) mod p_bs r = 0 -> 4 <= p_bs r <= size + 4 ->
  read_message P FS ftake r ((be_encode 4 size ++ body) ++ tl) =
  rlift FS (finish P r Plain size body EvNone) tl.
Proof.
  intros Em Hm Hsz Hb Hal Hbs.
  destruct (split_at body (p_bs r - 4)) as (l & t & -> & Hl); [lia|]. rewrite zlen_app in Hb.
  rewrite <- !app_assoc, (app_assoc (be_encode 4 size) l).
  unfold read_message. rewrite rbind_take by (rewrite zlen_app, zlen_be; lia).
  unfold read_body. rewrite Em.
  replace EvNone with (if 0 <? p_msz r then EvMac (mac_input (p_seq r) size (l ++ t)) [] else EvNone)
    by now rewrite Hm.
  apply (read_classic_exact r _ _ (fun rest => (rest, Plain)) size l t t Plain [] tl);
    try reflexivity; try lia.
  rewrite Hm. reflexivity.
Qed.

Lemma zlen_dec s x : zlen (fst (c_dec P s x)) = zlen x.
Proof. unfold zlen. now rewrite (dec_len _ _ _ HP). Qed.

(* the reader decrypts the first block of o and the rest separately, which dec_split joins *)
Lemma read_classic_mode r se sd k size body o tag tl :
  p_mode r = Classic sd k -> cinv (p_bs r) se sd ->
  fst (c_dec P sd o) = be_encode 4 size ++ body ->
  0 <= size < 2 ^ 32 -> zlen body = size -> (size + 4) mod p_bs r = 0 -> 4 <= p_bs r <= size + 4 ->
  tag = mac_tag P k (p_msz r) (mac_input (p_seq r) size body) -> zlen tag = p_msz r ->
  read_message P FS ftake r ((o ++ tag) ++ tl) =
  rlift FS (finish P r (Classic (snd (c_dec P sd o)) k) size body
              (if 0 <? p_msz r then EvMac (mac_input (p_seq r) size body) tag else EvNone)) tl.
Proof.
  intros Em Hc Hd Hsz Hb Hal Hbs Ht Htag.
  assert (Ho : zlen o = size + 4) by (rewrite <- (zlen_dec sd o), Hd, zlen_app, zlen_be; lia).
  destruct (split_at o (p_bs r)) as (o1 & o2 & -> & Ho1); [lia|].
  destruct (split_at body (p_bs r - 4)) as (l & t & -> & Hl); [lia|].
  rewrite zlen_app in Ho, Hb.
  rewrite (dec_split _ _ _ HP (p_bs r) se sd o1 o2 Hc) in Hd |- * by (rewrite Ho1; apply Z_mod_same_full).
  cbn [fst snd] in Hd |- *. rewrite app_assoc in Hd. apply app_len_inj in Hd as [Hd1 Hd2].
  2:{ apply Nat2Z.inj. change (zlen (fst (c_dec P sd o1)) = zlen (be_encode 4 size ++ l)).
      rewrite zlen_dec, zlen_app, zlen_be. lia. }
  rewrite <- !app_assoc. unfold read_message. rewrite rbind_take by exact Ho1.
  unfold read_body. rewrite Em.
  apply (read_classic_exact r o1 _
           (fun rest => (fst (c_dec P (snd (c_dec P sd o1)) rest),
                         Classic (snd (c_dec P (snd (c_dec P sd o1)) rest)) k))
           size l o2 t _ tag tl); try assumption; try lia.
  - cbv beta. now rewrite Hd1.
  - cbv beta. now rewrite Hd2.
  - intros _. exists sd, k. auto.
Qed.

Lemma read_etm r c k size o tag tl :
  p_mode r = Etm c k -> 0 <= size < 2 ^ 32 -> zlen o = size -> 4 <= p_bs r <= size + 4 ->
  tag = mac_tag P k (p_msz r) (mac_input (p_seq r) size o) -> zlen tag = p_msz r ->
  read_message P FS ftake r ((be_encode 4 size ++ o) ++ tag ++ tl) =
  rlift FS (finish P r (Etm (snd (c_dec P c o)) k) size (fst (c_dec P c o))
              (EvMac (mac_input (p_seq r) size o) tag)) tl.
Proof.
  intros Em Hsz Ho Hbs Ht Htag.
  destruct (split_at o (p_bs r - 4)) as (oa & ob & -> & Hoa); [lia|]. rewrite zlen_app in Ho.
  rewrite <- !app_assoc, (app_assoc (be_encode 4 size) oa).
  unfold read_message. rewrite rbind_take by (rewrite zlen_app, zlen_be; lia).
  unfold read_body. rewrite Em, firstn4_be, skipn4_be, be4_roundtrip by exact Hsz.
  rewrite rbind_take by lia. rewrite rbind_take by exact Htag.
  rewrite <- Ht, cteq_refl. reflexivity.
Qed.

Lemma read_aead r k iv size ct tl :
  p_mode r = Aead k iv -> 0 <= size < 2 ^ 32 -> zlen ct = size + p_msz r ->
  4 <= p_bs r <= zlen ct + 4 ->
  read_message P FS ftake r ((be_encode 4 size ++ ct) ++ tl) =
  match a_dec P k iv ct (be_encode 4 size) with
  | None => Fail (LibExc 1)
  | Some pt => rlift FS (bind (inc_iv iv) (fun iv' =>
                 finish P r (Aead k iv') size pt (EvAead iv (be_encode 4 size) ct))) tl
  end.
Proof.
  intros Em Hsz Hct Hbs.
  destruct (split_at ct (p_bs r - 4)) as (ca & cb & -> & Hca); [lia|]. rewrite zlen_app in Hct.
  rewrite <- !app_assoc, (app_assoc (be_encode 4 size) ca).
  unfold read_message. rewrite rbind_take by (rewrite zlen_app, zlen_be; lia).
  unfold read_body. rewrite Em, firstn4_be, skipn4_be, be4_roundtrip by exact Hsz.
  rewrite rbind_take by lia. destruct (a_dec P k iv (ca ++ cb) (be_encode 4 size)); reflexivity.
Qed.

Opaque be_encode.   (* `injection` would expand be_encode 4 _ into its four bytes *)
Lemma wire_roundtrip s r size body w ms' :
  p_msz s = p_msz r -> p_seq s = p_seq r -> 8 <= p_bs r ->
  mode_sync cinv (p_bs r) (p_msz r) (p_mode s) (p_mode r) ->
  0 <= size < 2 ^ 32 -> zlen body = size -> bytes_ok body = true ->
  (size + (addlen P (p_mode s) - 4)) mod p_bs r = 0 -> p_bs r <= size + (addlen P (p_mode s) - 4) ->
  encrypt_packet P s (be_encode 4 size ++ body) = Ok (w, ms') ->
  exists mr' ev,
    mode_sync cinv (p_bs r) (p_msz r) ms' mr' /\
    (is_plain P (p_mode r) = false -> 0 < p_msz r -> ev <> EvNone) /\
    forall tl, read_message P FS ftake r (w ++ tl) = rlift FS (finish P r mr' size body ev) tl.
Proof.
  intros Hmsz Hseq Hbs8 Hmode Hsz Hb Hbody Hal Hge Henc.
  unfold encrypt_packet in Henc. rewrite Hmsz, Hseq in Henc.
  destruct (p_mode s) as [|se k|se k|ak iv]; destruct (p_mode r) as [|sd k'|sd k'|ak' iv'] eqn:Emr;
    cbn [mode_sync] in Hmode; try contradiction; cbn [addlen] in Hal, Hge.
  - change (8 - 4) with 4 in Hal. injection Henc as <- <-.
    exists Plain, EvNone. split; [exact Hmode|]. split; [discriminate|].
    intros tl. apply read_plain; assumption || lia.
  - change (8 - 4) with 4 in Hal. destruct Hmode as (<- & Hc & Htl).
    rewrite (surjective_pairing (c_enc P se _)) in Henc. injection Henc as <- <-.
    destruct (dec_enc _ _ _ HP (p_bs r) se sd (be_encode 4 size ++ body) Hc) as [Hd Hc'].
    { now rewrite bytes_ok_app, be_encode_ok. }
    { rewrite zlen_app, zlen_be, Z.add_comm, Hb. exact Hal. }
    eexists (Classic _ k), _. split; [cbn; eauto|]. split.
    2:{ intros tl. apply (read_classic_mode r se sd k size body); auto; lia. }
    intros _ Hm. destruct (0 <? p_msz r) eqn:E; [discriminate|lia].
  - change (4 - 4) with 0 in Hal. rewrite Z.add_0_r in Hal. destruct Hmode as (<- & Hc & Htl).
    rewrite firstn4_be, skipn4_be, (surjective_pairing (c_enc P se body)) in Henc. injection Henc as <- <-.
    destruct (dec_enc _ _ _ HP (p_bs r) se sd body Hc Hbody) as [Hd Hc']; [now rewrite Hb|].
    eexists (Etm _ k), _. split; [cbn; eauto|]. split.
    2:{ intros tl. rewrite <- app_assoc, (read_etm r sd k size _ _ tl Emr Hsz); auto.
        - rewrite Hd. reflexivity.
        - unfold zlen. rewrite (enc_len _ _ _ HP). exact Hb.
        - lia. }
    intros _ _. discriminate.
  - destruct Hmode as (<- & <- & Hm16).
    rewrite firstn4_be, skipn4_be in Henc.
    apply bind_ok in Henc as (iv2 & Ei & Henc). injection Henc as <- <-.
    pose proof (aead_len _ _ _ HP ak iv body (be_encode 4 size)) as Hcl.
    exists (Aead ak iv2), (EvAead iv (be_encode 4 size) (a_enc P ak iv body (be_encode 4 size))).
    split; [cbn; auto|]. split; [intros _ _; discriminate|].
    intros tl. rewrite (read_aead r ak iv size _ tl Emr Hsz) by lia.
    rewrite (aead_dec_enc _ _ _ HP) by exact Hbody. rewrite Ei. reflexivity.
Qed.
Transparent be_encode.

Lemma sync_next s r ms mr zs zr :
  sync cinv zinv s r -> mode_sync cinv (p_bs s) (p_msz s) ms mr -> z_sync zinv zs zr ->
  sync cinv zinv (with_mode_seq_z P s ms ((p_seq s + 1) mod 2 ^ 32) zs)
                 (with_mode_seq_z P r mr ((p_seq r + 1) mod 2 ^ 32) zr).
Proof.
  intros (Hbs & Hmsz & Hseq & Hkex & Hbs8 & Hmsz0 & Hseqr & Hmode & Hz) Hm Hz'.
  pose proof (Z.mod_pos_bound (p_seq s + 1) (2 ^ 32) ltac:(lia)). unfold sync.
  cbn [with_mode_seq_z p_bs p_msz p_seq p_kex p_mode p_z]. rewrite <- Hseq.
  repeat split; assumption || lia.
Qed.

Lemma sync_set_cipher s r ms mr bs msz sd1 sd2 zs zr :
  sync cinv zinv s r -> 8 <= bs -> 0 <= msz -> mode_sync cinv bs msz ms mr -> z_sync zinv zs zr ->
  sync cinv zinv (set_cipher P s ms bs msz sd1 zs) (set_cipher P r mr bs msz sd2 zr).
Proof.
  intros (Hbs & Hmsz & Hseq & Hkex & Hbs8 & Hmsz0 & Hseqr & Hmode & Hz) H1 H2 H3 H4.
  unfold sync. cbn. repeat split; try assumption; lia.
Qed.

Lemma sync_reset s r : sync cinv zinv s r -> sync cinv zinv (reset_seqno P s) (reset_seqno P r).
Proof.
  intros (Hbs & Hmsz & Hseq & Hkex & Hbs8 & Hmsz0 & Hseqr & Hmode & Hz).
  unfold sync. cbn. repeat split; try assumption; lia.
Qed.

Theorem roundtrip1 s r data rnd w s' :
  sync cinv zinv s r -> data <> [] -> bytes_ok data = true -> bytes_ok rnd = true ->
  send_message P s data rnd = Ok (w, s') ->
  exists ev r',
    (forall rest, read_message P FS ftake r (w ++ rest) = Done (data, ev, r') rest) /\
    sync cinv zinv s' r' /\ p_seq s' = (p_seq s + 1) mod 2 ^ 32 /\
    (is_plain P (p_mode r) = false -> 0 < p_msz r -> ev <> EvNone).
Proof.
  intros Hs Hne Hb Hr Hsend.
  destruct (send_message_inv s data rnd w s' Hsend) as (packet & m' & Hbuild & Henc & Hro & ->).
  pose proof Hs as (Hbs & Hmsz & Hseq & Hkex & Hbs8 & Hmsz0 & Hseqr & Hmode & Hz).
  destruct (build_packet_inv s _ rnd packet Hbs8 (comp_step_bytes (p_z s) data Hb) Hr Hbuild)
    as (padding & pad & size & -> & -> & Hbl & Hsz & Hbody & Hal & Hge).
  rewrite Hbs in Hal, Hge, Hbs8, Hmode. rewrite Hmsz in Hmode. rewrite Hseq, Hkex in Hro.
  destruct (wire_roundtrip s r _ _ w m' Hmsz Hseq Hbs8 Hmode Hsz Hbl Hbody Hal Hge Henc)
    as (mr' & ev & Hm' & Hev & Hread).
  destruct (finish_honest r mr' padding pad data (p_z s) ev Hb Hne Hz Hro) as (zr' & Hf & Hz').
  exists ev, (with_mode_seq_z P r mr' ((p_seq r + 1) mod 2 ^ 32) zr'). split; [|split; [|split]].
  - intros rest. rewrite Hread, Hf. reflexivity.
  - apply sync_next; [exact Hs| |exact Hz']. now rewrite Hbs, Hmsz.
  - reflexivity.
  - exact Hev.
Qed.

Theorem prefix_blocks s r data rnd w s' q :
  sync cinv zinv s r -> data <> [] -> bytes_ok data = true -> bytes_ok rnd = true ->
  send_message P s data rnd = Ok (w, s') -> strict_prefix q w ->
  read_message P FS ftake r q = Need.
Proof.
  intros Hs Hne Hb Hr Hsend Hq.
  destruct (roundtrip1 s r data rnd w s' Hs Hne Hb Hr Hsend) as (ev & r1 & Hrd & _).
  destruct (mono_read_message P r _ _ _ (Hrd [])) as (c & Hc & _ & N).
  rewrite !app_nil_r in Hc. subst c. apply N, Hq.
Qed.

Theorem roundtrip_ops : forall ops s r ws s',
  sync cinv zinv s r -> ops_ok cinv zinv ops -> send_ops P s ops = Ok (ws, s') ->
  forall rest, exists r',
    recv_ops P r ops (concat ws ++ rest) = Some (payloads P ops, r', rest) /\ sync cinv zinv s' r'.
Proof.
  induction ops as [|o ops IH]; intros s r ws s' Hs Hok Hsend rest.
  - cbn in Hsend. injection Hsend as <- <-. exists r. cbn. auto.
  - destruct o as [p rnd | ms mr bs msz sd zs zr | ].
    + cbn [send_ops] in Hsend. destruct Hok as (Hne & Hb & Hr & Hok).
      apply bind_ok in Hsend as ([w s1] & E1 & Hsend). apply bind_ok in Hsend as ([wt sf] & E2 & Hsend).
      injection Hsend as <- <-. cbn [fst snd] in *.
      destruct (roundtrip1 s r p rnd w s1 Hs Hne Hb Hr E1) as (ev & r1 & Hrd & Hs1 & _).
      destruct (IH s1 r1 wt sf Hs1 Hok E2 rest) as (r' & Hrec & Hs').
      exists r'. split; [|exact Hs']. cbn [recv_ops concat payloads]. unfold read_message_flat.
      rewrite <- app_assoc, Hrd, Hrec. reflexivity.
    + cbn [send_ops] in Hsend. destruct Hok as (H1 & H2 & H3 & H4 & Hok).
      cbn [recv_ops payloads]. eapply IH; eauto. now apply sync_set_cipher.
    + cbn [send_ops] in Hsend. cbn [recv_ops payloads]. eapply IH; eauto. now apply sync_reset.
Qed.

Fixpoint all_msgs (ops : list (op P)) : Prop :=
  match ops with [] => True | OMsg _ _ :: t => all_msgs t | _ => False end.

Lemma recv_ops_read_many : forall ops r buf ps r' q,
  all_msgs ops -> recv_ops P r ops buf = Some (ps, r', q) -> read_message P FS ftake r' q = Need ->
  forall fuel, (length ops < fuel)%nat ->
  exists evs, read_many P FS ftake fuel r buf = (ps, evs, FNeed, r', q).
Proof.
  induction ops as [|o ops IH]; intros r buf ps r' q Hall Hrec N fuel Hfuel;
    (destruct fuel as [|f]; [cbn in Hfuel; lia|]); cbn [read_many].
  - injection Hrec as <- <- <-. exists []. now rewrite N.
  - destruct o as [p rnd | | ]; try contradiction. cbn [recv_ops all_msgs length] in *.
    unfold read_message_flat in Hrec.
    destruct (read_message P FS ftake r buf) as [| |[[p1 ev] r1] buf1]; try discriminate.
    destruct (recv_ops P r1 ops buf1) as [[[ps1 rf] bf]|] eqn:E; [|discriminate].
    injection Hrec as <- <- <-.
    destruct (IH r1 buf1 ps1 rf bf Hall E N f ltac:(lia)) as (evs & ->). eauto.
Qed.

Theorem read_many_prefix ops s r ws s' q :
  sync cinv zinv s r -> ops_ok cinv zinv ops -> all_msgs ops -> send_ops P s ops = Ok (ws, s') ->
  (q = [] \/ exists p rnd w s'', p <> [] /\ bytes_ok p = true /\ bytes_ok rnd = true /\
                                send_message P s' p rnd = Ok (w, s'') /\ strict_prefix q w) ->
  forall fuel, (length ops < fuel)%nat ->
  exists evs r', read_many P FS ftake fuel r (concat ws ++ q) = (payloads P ops, evs, FNeed, r', q) /\
                 sync cinv zinv s' r'.
Proof.
  intros Hs Hok Hall Hsend Hq fuel Hfuel.
  destruct (roundtrip_ops ops s r ws s' Hs Hok Hsend q) as (r' & Hrec & Hs').
  assert (N : read_message P FS ftake r' q = Need).
  { destruct Hq as [-> | (p & rnd & w & s'' & H1 & H2 & H3 & H4 & H5)].
    - destruct Hs' as (Hbs & _ & _ & _ & Hbs8 & _). unfold read_message, rbind, rtake.
      rewrite ftake_short; [reflexivity|lia|rewrite zlen_nil; lia].
    - eapply prefix_blocks; eauto. }
  destruct (recv_ops_read_many ops r _ _ r' q Hall Hrec N fuel Hfuel) as (evs & E). eauto.
Qed.
End RT.

(* identity primitives: the laws are satisfiable (C01_laws_satisfiable) *)
Definition idP : prims :=
  {| cst := unit; c_enc := fun s x => (x, s); c_dec := fun s x => (x, s);
     mkey := unit; hmac := fun _ _ => repeat 0 20%nat;
     akey := unit; a_enc := fun _ _ p _ => p ++ repeat 0 16%nat;
     a_dec := fun _ _ c _ => Some (firstn (length c - 16) c);
     zst := unit; z_comp := fun z x => (x, z); z_decomp := fun z x => Ok (x, z) |}.

Definition id_state (m : mode idP) (bs msz : Z) : pstate idP :=
  {| p_mode := m; p_bs := bs; p_msz := msz; p_seq := 2 ^ 32 - 1; p_kex := true;
     p_sdctr := false; p_z := Some tt |}.

Definition iv_ok (iv : list Z) : Prop := bytes_ok iv = true /\ (4 <= length iv)%nat.

Lemma inc_iv_ctr iv iv' : iv_ok iv -> inc_iv iv = Ok iv' ->
  be_decode (skipn 4 iv') = be_decode (skipn 4 iv) + 1 /\ iv_ok iv'.
Proof.
  intros [Hb Hl] H. unfold inc_iv in H.
  destruct (be_decode (skipn 4 iv) + 1 <? 2 ^ 64) eqn:E; [|discriminate].
  replace iv' with (firstn 4 iv ++ be_encode 8 (be_decode (skipn 4 iv) + 1)) by congruence.
  pose proof (be_decode_range (skipn 4 iv) (bytes_ok_skipn 4 iv Hb)) as R.
  assert (L4 : length (firstn 4 iv) = 4%nat) by (rewrite firstn_length; lia).
  rewrite (skipn_zlen_app (firstn 4 iv) _ 4) by (unfold zlen; lia).
  rewrite be_decode_encode by (change (256 ^ Z.of_nat 8) with (2 ^ 64); lia).
  split; [reflexivity|]. split.
  - rewrite bytes_ok_app, be_encode_ok, (bytes_ok_firstn 4 iv Hb). reflexivity.
  - rewrite app_length, L4. lia.
Qed.

Lemma iv_after_ctr : forall k iv a, iv_ok iv -> iv_after k iv = Ok a ->
  be_decode (skipn 4 a) = be_decode (skipn 4 iv) + Z.of_nat k.
Proof.
  induction k as [|k IH]; intros iv a Hi H.
  - cbn in H. injection H as <-. lia.
  - cbn [iv_after] in H. apply bind_ok in H as (iv1 & E & H).
    destruct (inc_iv_ctr iv iv1 Hi E) as [C Hi1].
    pose proof (IH iv1 a Hi1 H) as C2. lia.
Qed.
