(* C41 — lemmas about Model/C41.v.  The effective key `eff` of a query is a `find` over the table
   (eff_find), followed as the table grows at either end; load's loop that removes while iterating
   over a copy is a filter (prune_filter); a table that knows every name of every line of a file
   (`covered`) is left as it is by loading the file, and loading makes it so: load_twice. *)
From PV Require Import Bytes ListFacts C41_gen C41.
Open Scope Z_scope.

Lemma name_eqb_eq a b : name_eqb a b = true <-> a = b.
Proof.
  destruct a as [h1 i1], b as [h2 i2]; unfold name_eqb; cbn.
  rewrite andb_true_iff, Z.eqb_eq, eqb_true_iff. split; [now intros [-> ->] | now intros [= -> ->]].
Qed.

Lemma name_eqb_refl a : name_eqb a a = true.
Proof. now apply name_eqb_eq. Qed.

Lemma key_eqb_eq a b : key_eqb a b = true <-> a = b.
Proof.
  destruct a as [a1 a2], b as [b1 b2]; unfold key_eqb; cbn.
  rewrite andb_true_iff, !Z.eqb_eq. split; [now intros [-> ->] | now intros [= -> ->]].
Qed.

Lemma key_eqb_refl a : key_eqb a a = true.
Proof. now apply key_eqb_eq. Qed.

Lemma hash_match_iff hm p t : hash_match hm p t = true <-> In (p, t) hm.
Proof.
  unfold hash_match. rewrite existsb_exists. split.
  - intros [[a b] [Hin H]]. cbn in H. apply andb_true_iff in H as [H1 H2].
    apply Z.eqb_eq in H1, H2. subst. exact Hin.
  - intros H. exists (p, t). split; [exact H|]. cbn. now rewrite !Z.eqb_refl.
Qed.

Lemma name_matches_iff hm q h :
  name_matches hm q h = true <->
  (h = q \/ (is_hashed h = true /\ is_hashed q = false /\ In (name_id q, name_id h) hm)).
Proof.
  unfold name_matches.
  rewrite orb_true_iff, !andb_true_iff, name_eqb_eq, negb_true_iff, hash_match_iff. tauto.
Qed.

Lemma hostname_matches_iff hm q e : hostname_matches hm q e = true <-> lists hm q e.
Proof.
  unfold hostname_matches, lists. rewrite existsb_exists. now setoid_rewrite name_matches_iff.
Qed.

Lemma name_matches_trans hm q n m :
  name_matches hm q n = true -> name_matches hm n m = true -> name_matches hm q m = true.
Proof.
  rewrite !name_matches_iff.
  intros [->|(Hn & Hq & Hin)] [->|(Hm & Hn' & Hin')]; auto.
  congruence.
Qed.

Lemma hostname_matches_trans hm q n e :
  name_matches hm q n = true -> hostname_matches hm n e = true -> hostname_matches hm q e = true.
Proof.
  unfold hostname_matches. rewrite !existsb_exists. intros Hq [m [Hin Hm]].
  exists m. split; [exact Hin|]. eapply name_matches_trans; eauto.
Qed.

Lemma lookup_in hm st q e : In e (lookup hm st q) <-> In e st /\ lists hm q e.
Proof. unfold lookup. rewrite filter_In, hostname_matches_iff. tauto. Qed.

Lemma lookup_nil hm st q : lookup hm st q = [] <-> forall e, In e st -> ~ lists hm q e.
Proof.
  unfold lookup. rewrite filter_nil_iff. setoid_rewrite <- not_true_iff_false.
  now setoid_rewrite hostname_matches_iff.
Qed.

Definition sel (hm : hmap) (q : name) (t : Z) (e : entry) : bool :=
  hostname_matches hm q e && (ktype (snd e) =? t).

Lemma eff_find hm st q t :
  eff hm st q t = match find (sel hm q t) st with Some e => Some (snd e) | None => None end.
Proof. unfold eff, subdict_get, lookup. rewrite find_filter. reflexivity. Qed.

Lemma sel_iff hm q t e : sel hm q t e = true <-> lists hm q e /\ ktype (snd e) = t.
Proof. unfold sel. rewrite andb_true_iff, hostname_matches_iff, Z.eqb_eq. tauto. Qed.

Lemma eff_cons hm e st q t :
  eff hm (e :: st) q t = if sel hm q t e then Some (snd e) else eff hm st q t.
Proof. rewrite !eff_find. cbn [find]. now destruct (sel hm q t e). Qed.

Lemma eff_app hm st e q t :
  eff hm (st ++ [e]) q t =
  match eff hm st q t with
  | Some k => Some k
  | None => if sel hm q t e then Some (snd e) else None
  end.
Proof.
  rewrite !eff_find, find_app'. destruct (find (sel hm q t) st); [reflexivity|].
  cbn. now destruct (sel hm q t e).
Qed.

Lemma eff_none hm st q t :
  eff hm st q t = None <-> forall e, In e st -> sel hm q t e = false.
Proof. rewrite eff_find, <- find_none_iff. now destruct (find (sel hm q t) st). Qed.

Lemma first_per_type hm st q t k :
  eff hm st q t = Some k <->
  exists s1 e s2, st = s1 ++ e :: s2 /\ lists hm q e /\ ktype (snd e) = t /\ snd e = k /\
    forall e', In e' s1 -> ~ (lists hm q e' /\ ktype (snd e') = t).
Proof.
  rewrite eff_find. split.
  - destruct (find (sel hm q t) st) as [e|] eqn:F; [|discriminate].
    intros [= <-]. apply find_split in F as (s1 & s2 & -> & Hs & Hn).
    apply sel_iff in Hs as [Hl Ht]. exists s1, e, s2. repeat split; auto.
    intros e' Hin Hc. apply sel_iff in Hc. now rewrite (Hn e' Hin) in Hc.
  - intros (s1 & e & s2 & -> & Hl & Ht & <- & Hn).
    rewrite (proj2 (find_split (sel hm q t) (s1 ++ e :: s2) e)); [reflexivity|].
    exists s1, s2. split; [reflexivity|]. split; [now apply sel_iff|].
    intros y Hy. apply not_true_iff_false. rewrite sel_iff. now apply Hn.
Qed.

Lemma eff_type hm st q t k : eff hm st q t = Some k -> ktype k = t.
Proof. intros H. apply first_per_type in H as (s1 & e & s2 & _ & _ & Ht & <- & _). exact Ht. Qed.

Lemma check_iff hm st q k : check hm st q k = true <-> eff hm st q (ktype k) = Some k.
Proof.
  unfold check, eff. destruct (lookup hm st q) as [|e l] eqn:E.
  - cbn. split; discriminate.
  - destruct (subdict_get (e :: l) (ktype k)) as [hk|].
    + rewrite key_eqb_eq. split; [now intros -> | now intros [= ->]].
    + split; discriminate.
Qed.

Lemma remove_first_app known pre h r :
  (forall x, In x pre -> known x = false) -> known h = true ->
  remove_first h (pre ++ h :: r) = pre ++ r.
Proof.
  intros Hpre Hh. induction pre as [|x pre IH]; cbn.
  - now rewrite name_eqb_refl.
  - destruct (name_eqb x h) eqn:E.
    + apply name_eqb_eq in E. subst x. rewrite (Hpre h (or_introl eq_refl)) in Hh. discriminate.
    + f_equal. apply IH. intros y Hy. apply Hpre. now right.
Qed.

Lemma prune_gen known suf : forall pre,
  (forall x, In x pre -> known x = false) ->
  fold_left (fun cur h => if known h then remove_first h cur else cur) suf (pre ++ suf)
  = pre ++ filter (fun h => negb (known h)) suf.
Proof.
  induction suf as [|h r IH]; intros pre Hpre; cbn [fold_left filter].
  - reflexivity.
  - destruct (known h) eqn:E; cbn [negb].
    + rewrite (remove_first_app known pre h r Hpre E). apply IH. exact Hpre.
    + change (pre ++ h :: r) with (pre ++ [h] ++ r). rewrite app_assoc.
      rewrite IH.
      * rewrite <- app_assoc. reflexivity.
      * intros x Hx. apply in_app_or in Hx as [Hx|[<-|[]]]; auto.
Qed.

Lemma prune_filter known names : prune known names = filter (fun h => negb (known h)) names.
Proof. unfold prune. apply (prune_gen known names []). intros x []. Qed.

Lemma load_line_filter hm st names k :
  load_line hm st (LEntry names k) =
  match filter (fun h => negb (has_entry hm st h k)) names with
  | [] => st
  | n' => st ++ [(n', k)]
  end.
Proof.
  (* only checks when gen/c41.py found the repaired loop in the source: copy + _has_entry *)
  unfold load_line. change gen_load_uses_has_entry with true. change gen_load_iterates_copy with true.
  cbv beta iota zeta. rewrite prune_filter. reflexivity.
Qed.

Lemma has_entry_app hm a b h k : has_entry hm (a ++ b) h k = has_entry hm a h k || has_entry hm b h k.
Proof. unfold has_entry. apply existsb_app. Qed.

Lemma has_entry_mono hm a b h k : has_entry hm a h k = true -> has_entry hm (a ++ b) h k = true.
Proof. intros H. rewrite has_entry_app, H. reflexivity. Qed.

Lemma has_entry_self hm names k h : In h names -> has_entry hm [(names, k)] h k = true.
Proof.
  intros Hin. unfold has_entry. cbn. rewrite key_eqb_refl, orb_false_r, andb_true_r.
  unfold hostname_matches. cbn. apply existsb_exists. exists h. split; [exact Hin|].
  unfold name_matches. now rewrite name_eqb_refl.
Qed.

Lemma load_line_extends hm st l : exists x, load_line hm st l = st ++ x.
Proof.
  destruct l as [|names k].
  - exists []. cbn. now rewrite app_nil_r.
  - rewrite load_line_filter. destruct (filter _ names) as [|n r].
    + exists []. now rewrite app_nil_r.
    + eexists. reflexivity.
Qed.

Lemma load_extends hm f : forall st, exists x, load hm st f = st ++ x.
Proof.
  induction f as [|l f IH]; intros st; cbn.
  - exists []. now rewrite app_nil_r.
  - destruct (load_line_extends hm st l) as [x Hx]. destruct (IH (load_line hm st l)) as [y Hy].
    exists (x ++ y). unfold load in Hy. rewrite Hy, Hx, app_assoc. reflexivity.
Qed.

Lemma load_line_known hm st names k h :
  In h names -> has_entry hm (load_line hm st (LEntry names k)) h k = true.
Proof.
  intros Hin. rewrite load_line_filter.
  destruct (has_entry hm st h k) eqn:E.
  - destruct (filter _ names); [exact E | now apply has_entry_mono].
  - assert (Hf : In h (filter (fun h0 => negb (has_entry hm st h0 k)) names)).
    { apply filter_In. split; [exact Hin|]. now rewrite E. }
    destruct (filter _ names) as [|n r] eqn:F; [destruct Hf|].
    rewrite has_entry_app, (has_entry_self hm (n :: r) k h Hf). apply orb_true_r.
Qed.

Lemma load_line_noop hm st names k :
  (forall h, In h names -> has_entry hm st h k = true) ->
  load_line hm st (LEntry names k) = st.
Proof.
  intros H. rewrite load_line_filter, (proj2 (filter_nil_iff _ names)); [reflexivity|].
  intros h Hh. now rewrite H.
Qed.

Definition covered (hm : hmap) (st : state) (f : list line) : Prop :=
  forall names k, In (LEntry names k) f -> forall h, In h names -> has_entry hm st h k = true.

Lemma covered_noop hm f : forall st, covered hm st f -> load hm st f = st.
Proof.
  induction f as [|l f IH]; intros st Hc; cbn; [reflexivity|].
  assert (E : load_line hm st l = st).
  { destruct l as [|names k]; [reflexivity|]. apply load_line_noop.
    intros h Hh. apply (Hc names k); [now left | exact Hh]. }
  rewrite E. apply IH. intros names k Hin. apply Hc. now right.
Qed.

Lemma covered_after hm f : forall st, covered hm (load hm st f) f.
Proof.
  induction f as [|l f IH]; intros st names k Hin h Hh; [destruct Hin|].
  cbn. destruct Hin as [->|Hin].
  - destruct (load_extends hm f (load_line hm st (LEntry names k))) as [x Hx].
    unfold load in Hx. rewrite Hx. apply has_entry_mono. now apply load_line_known.
  - apply (IH (load_line hm st l) names k Hin h Hh).
Qed.

Lemma load_twice hm st f : load hm (load hm st f) f = load hm st f.
Proof. apply covered_noop, covered_after. Qed.

Lemma known_has_eff hm R n k q :
  has_entry hm R n k = true -> name_matches hm q n = true -> eff hm R q (ktype k) <> None.
Proof.
  unfold has_entry. rewrite existsb_exists, eff_none. intros (e0 & Hin0 & H0) Hm Hnone.
  apply andb_true_iff in H0 as [Hm0 Hk0]. apply key_eqb_eq in Hk0.
  specialize (Hnone e0 Hin0). unfold sel in Hnone.
  now rewrite (hostname_matches_trans hm q n e0 Hm Hm0), Hk0, Z.eqb_refl in Hnone.
Qed.

(* the names a line loses to the duplicate test are none that a host without a key of that type
   could be found under; so for eff the line counts as a whole *)
Lemma eff_load_line hm R names k q t :
  eff hm (load_line hm R (LEntry names k)) q t =
  match eff hm R q t with
  | Some x => Some x
  | None => if sel hm q t (names, k) then Some k else None
  end.
Proof.
  rewrite load_line_filter. set (names' := filter _ names).
  assert (S : eff hm R q t = None -> sel hm q t (names', k) = sel hm q t (names, k)).
  { intros E. unfold sel, hostname_matches. cbn [fst snd].
    destruct (Z.eqb_spec (ktype k) t) as [<-|]; [|now rewrite !andb_false_r]. f_equal.
    apply existsb_filter_same. intros n _ Hm. apply negb_true_iff, not_true_iff_false.
    intros Hk. now apply (known_has_eff hm R n k q). }
  destruct names' as [|n r] eqn:F; [|rewrite eff_app]; destruct (eff hm R q t); trivial;
    now rewrite <- S.
Qed.

Lemma save_reload_eff hm st : forall q t, eff hm (load hm [] (save st)) q t = eff hm st q t.
Proof.
  induction st as [|e st IH] using rev_ind; intros q t; [reflexivity|].
  unfold save. rewrite map_app. cbn [map]. unfold load. rewrite fold_left_app. cbn [fold_left].
  fold (save st). fold (load hm [] (save st)).
  rewrite eff_load_line, eff_app, IH. destruct e as [names k]. reflexivity.
Qed.

Lemma sub_replace_eff hm q k st :
  match sub_replace hm st q (ktype k) k with
  | Some st' => eff hm st' q (ktype k) = Some k
  | None => eff hm st q (ktype k) = None
  end.
Proof.
  induction st as [|a st IH]; cbn [sub_replace]; [reflexivity|].
  fold (sel hm q (ktype k) a). destruct (sel hm q (ktype k) a) eqn:E.
  - rewrite eff_cons. unfold sel, hostname_matches in *. cbn [fst snd].
    apply andb_true_iff in E as [-> _]. now rewrite Z.eqb_refl.
  - destruct (sub_replace hm st q (ktype k) k); rewrite eff_cons, E; exact IH.
Qed.

Lemma sel_self hm q k : sel hm q (ktype k) ([q], k) = true.
Proof.
  unfold sel, hostname_matches, name_matches. cbn [fst snd existsb].
  now rewrite name_eqb_refl, Z.eqb_refl.
Qed.
