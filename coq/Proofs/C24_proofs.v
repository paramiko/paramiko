(* C24 -- proofs.  v1: everything the theorems need of a state satisfying the invariant inv_b
   (every atomic action preserves it, quiescence gives readable = wanted, a call in progress
   can move) is checked by one evaluation over the finite state space; it covers all states
   because inv_b pins the byte counter to the _set flag.  v0: refutation witnesses by
   evaluation. *)
From PV Require Import Bytes C24 C24_gen.
Open Scope Z_scope.

Lemma fb_ok (P : bool -> bool) : fb P = true -> forall b, P b = true.
Proof. unfold fb. intros [H1 H2]%andb_true_iff b. destruct b; assumption. Qed.

Lemma all_fl_ok (P : option (pop * bool) -> bool) : all_fl P = true -> forall x, P x = true.
Proof.
  unfold all_fl. intros [[H1 H2]%andb_true_iff H3]%andb_true_iff x.
  destruct x as [[[|] o]|]; [apply (fb_ok _ H2)|apply (fb_ok _ H3)|exact H1].
Qed.

Lemma all_cp_ok (P : cpc -> bool) : all_cp P = true -> forall x, P x = true.
Proof.
  unfold all_cp. intros [[[H1 H2]%andb_true_iff H3]%andb_true_iff H4]%andb_true_iff x.
  destruct x; assumption.
Qed.

Lemma all_label_ok (P : label -> bool) : all_label P = true -> forall l, P l = true.
Proof.
  unfold all_label.
  intros [[[[[[[HF HR]%andb_true_iff HE]%andb_true_iff ?]%andb_true_iff ?]%andb_true_iff
            ?]%andb_true_iff ?]%andb_true_iff ?]%andb_true_iff l.
  destruct l as [i e|i|i| | | | |]; try assumption.
  - exact (fb_ok _ (fb_ok _ HF i) e).
  - exact (fb_ok _ HR i).
  - exact (fb_ok _ HE i).
Qed.

Lemma inv_n s : inv_b s = true -> n s = if ps s then 1%nat else 0%nat.
Proof.
  unfold inv_b. intros H. repeat (apply andb_true_iff in H as [H _]). now apply Nat.eqb_eq.
Qed.

Lemma inv_canon s : inv_b s = true ->
  s = canon (s1 s) (s2 s) (ps s) (fv s) (ne1 s) (cl1 s) (ne2 s) (cl2 s) (ch s) (fl s) (cp s).
Proof. intros H%inv_n. destruct s. cbn in H. subst. reflexivity. Qed.

Lemma all_states_ok (P : st -> bool) :
  all_states P = true -> forall a b c d e f g h k x y, P (canon a b c d e f g h k x y) = true.
Proof.
  unfold all_states. intros H a b c d e f g h k x y.
  revert y; apply all_cp_ok. revert x; apply all_fl_ok.
  revert k; apply fb_ok. revert h; apply fb_ok. revert g; apply fb_ok. revert f; apply fb_ok.
  revert e; apply fb_ok. revert d; apply fb_ok. revert c; apply fb_ok. revert b; apply fb_ok.
  revert a; apply fb_ok. exact H.
Qed.

Lemma all_states_inv (P : st -> bool) :
  all_states (fun s => if inv_b s then P s else true) = true -> forall s, inv_b s = true -> P s = true.
Proof.
  intros H s HI.
  pose proof (all_states_ok _ H (s1 s) (s2 s) (ps s) (fv s) (ne1 s) (cl1 s) (ne2 s) (cl2 s) (ch s) (fl s) (cp s)) as H'.
  cbv beta in H'. rewrite <- (inv_canon s HI), HI in H'. exact H'.
Qed.

Definition inv_facts (s : st) : bool := all_label (step_keeps_inv s) && quiescent_ok s && can_move s.

(* inv_b s is tested before anything else is evaluated: 208 of the 10240 canonical states pass. *)
Lemma check_inv_facts : all_states (fun s => if inv_b s then inv_facts s else true) = true.
Proof. vm_compute. reflexivity. Qed.

Lemma inv_facts_ok s :
  inv_b s = true ->
  (forall l, step_keeps_inv s l = true) /\ quiescent_ok s = true /\ can_move s = true.
Proof.
  intros [[HS HQ]%andb_true_iff HM]%(all_states_inv _ check_inv_facts)%andb_true_iff.
  auto using all_label_ok.
Qed.

Lemma inv_step s l s' : inv_b s = true -> step s l = Some s' -> inv_b s' = true.
Proof.
  intros HI HS. destruct (inv_facts_ok s HI) as (H & _). specialize (H l).
  unfold step_keeps_inv in H. rewrite HI, HS in H. exact H.
Qed.

Lemma inv_reachable s0 s : inv_b s0 = true -> reachable s0 s -> inv_b s = true.
Proof. intros H0 R. induction R as [|s l s' R IH HS]; [assumption|]. exact (inv_step s l s' IH HS). Qed.

Lemma inv_quiescent s : inv_b s = true -> quiescent s = true -> readable s = wanted s.
Proof.
  intros HI HQ. destruct (inv_facts_ok s HI) as (_ & H & _).
  unfold quiescent_ok in H. rewrite HI, HQ in H. apply eqb_prop, H.
Qed.

Lemma inv_progress s : inv_b s = true -> quiescent s = false -> exists l s', step s l = Some s'.
Proof.
  intros HI HQ. destruct (inv_facts_ok s HI) as (_ & _ & H).
  unfold can_move in H. rewrite HI, HQ in H.
  destruct (step s Finish) eqn:E1; [eauto|].
  destruct (step s ChanFinish) eqn:E2; [eauto|].
  destruct (step s ChanClose) eqn:E3; [eauto|].
  destruct (step s ChanForever) eqn:E4; [eauto|discriminate H].
Qed.

(* The os.read inside PosixPipe.clear finds a byte: _set and not _forever mean n = 1. *)
Lemma inv_clear_never_blocks s : inv_b s = true -> pipe_clear s <> None.
Proof.
  intros H%inv_n. unfold pipe_clear.
  destruct (ps s); [|discriminate]. destruct (fv s); [discriminate|]. now rewrite H.
Qed.

Lemma fileno_inv d1 d2 c : inv_b (fileno_state d1 d2 c) = true.
Proof. destruct d1, d2, c; reflexivity. Qed.

Lemma fileno_quiescent d1 d2 c : quiescent (fileno_state d1 d2 c) = true.
Proof. reflexivity. Qed.

Lemma fileno_reachable_inv d1 d2 c s : reachable (fileno_state d1 d2 c) s -> inv_b s = true.
Proof. apply inv_reachable, fileno_inv. Qed.

Lemma quiescent_iff_inv s0 s :
  inv_b s0 = true -> reachable s0 s -> quiescent s = true ->
  (readable s = true <-> ne1 s = true \/ ne2 s = true \/ ch s = true).
Proof.
  intros I R Q. rewrite (inv_quiescent s (inv_reachable _ _ I R) Q).
  unfold wanted. rewrite !orb_true_iff. tauto.
Qed.

Lemma progress d1 d2 c s :
  reachable (fileno_state d1 d2 c) s -> quiescent s = false -> exists l s', step s l = Some s'.
Proof. intros R. apply inv_progress, (fileno_reachable_inv _ _ _ _ R). Qed.

Lemma run_labels_reachable s0 ls : forall s s', reachable s0 s -> run_labels s ls = Some s' -> reachable s0 s'.
Proof.
  induction ls as [|l r IH]; intros s s' R H; cbn in H.
  - injection H as <-. exact R.
  - destruct (step s l) as [t|] eqn:E; [|discriminate]. exact (IH t s' (r_step s0 s l t R E) H).
Qed.

(* v0: p2.clear (thread 0) against p1.set (thread 1), from the state after p2.set() *)
Lemma v0_race_set_clear :
  exists s pcs,
    exec0 (start0 false true false) [Start 3; Start 0] [0;0;0;1;1;1;1;1;1;0;0;0;0]%nat = Some (s, pcs) /\
    forallb is_done pcs = true /\ readable0 s = false /\ wanted0 s = true.
Proof. do 2 eexists. vm_compute. repeat split; reflexivity. Qed.

(* the v0 states that sequential use of the API produces (those of start0) *)
Definition consistent0 (s : st0) : bool :=
  Nat.eqb (nb s) (if pset s then 1 else 0) && implb (fvr s) (pset s)
  && implb (negb (fvr s)) (eqb (pset s) (a1 s || a2 s)).

Fixpoint run_alone (fuel : nat) (s : st0) (p : pc0) : option st0 :=
  match fuel with
  | O => None
  | S k => if is_done p then Some s
           else match step0 s p with Some (s', p') => run_alone k s' p' | None => None end
  end.

(* the first line of each of the five calls (any number other than 0..3 is set_forever) *)
Definition entries : list pc0 := [OrSetA false; OrSetA true; OrClrA false; OrClrA true; FvA].

Definition entry0 (c : Z) : pc0 :=
  if c =? 0 then OrSetA false else if c =? 1 then OrClrA false
  else if c =? 2 then OrSetA true else if c =? 3 then OrClrA true else FvA.

Lemma entry0_in c : In (entry0 c) entries.
Proof. unfold entry0. repeat destruct (c =? _); cbn; auto 6. Qed.

Definition alone_ok (s : st0) (p : pc0) : bool :=
  match run_alone 9 s p with
  | Some s' => consistent0 s' && eqb (readable0 s') (wanted0 s')
  | None => false
  end.

(* eight consistent states, five entry points, at most nine lines each *)
Lemma check_alone a b d :
  forallb (alone_ok (mk0 a b (d || (a || b)) d (if d || (a || b) then 1 else 0))) entries = true.
Proof. destruct a, b, d; reflexivity. Qed.

Lemma entry_alone s p :
  consistent0 s = true -> In p entries ->
  exists s', run_alone 9 s p = Some s' /\ consistent0 s' = true /\ readable0 s' = wanted0 s'.
Proof.
  destruct s as [a b c d m]. unfold consistent0 at 1; cbn [nb pset fvr a1 a2].
  rewrite !andb_true_iff, Nat.eqb_eq. intros [[-> H1] H2] Hp.
  assert (c = (d || (a || b))) as ->.
  { destruct d; [destruct c; [reflexivity|discriminate H1]|apply eqb_prop, H2]. }
  pose proof (proj1 (forallb_forall _ _) (check_alone a b d) p Hp) as H. unfold alone_ok in H.
  destruct (run_alone 9 _ p) as [s'|]; [|discriminate H].
  apply andb_true_iff in H as [H H'%eqb_prop]. eauto.
Qed.
