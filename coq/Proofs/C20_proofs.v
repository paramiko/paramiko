(* C20 -- proofs: conservation of window credit, no deadlock at quiescence, termination of a
   transfer under a reader that keeps reading, every byte credited. *)
From PV Require Import Bytes C19_gen C19 C19_proofs C20.
Open Scope Z_scope.

(* the discard branch of _feed_extended credits the bytes (re-checked against the source each run;
   fails on a tree where `_feed_extended` drops them silently) *)
Lemma discard_credits : ext_discard_credits = true.
Proof. reflexivity. Qed.

Lemma conservation_inv W0 s : Inv W0 s -> ow s + outstanding s = W0.
Proof.
  intros HI. pose proof (i_win _ _ HI). pose proof (i_emit _ _ HI). pose proof (i_wire _ _ HI).
  pose proof (i_cred _ _ HI). pose proof (i_adj _ _ HI). unfold outstanding, in_hand. lia.
Qed.

Lemma conservation W P dmp c ops :
  0 <= W -> Forall op_wf ops ->
  let s := run (init2 W P dmp c) ops in
  ow s + outstanding s = W /\ g_lost s = 0.
Proof.
  intros HW Hwf s. destruct (reach_inv W P W dmp c ops HW HW Hwf) as (HI & _).
  split; [now apply conservation_inv|]. apply (i_lost0 _ _ HI), discard_credits.
Qed.

Lemma progress_inv W0 s :
  Inv W0 s -> thr s < W0 -> quiescent s ->
  W0 - thr s <= ow s + sum (awire s) /\ (0 < ow s \/ awire s <> []).
Proof.
  intros HI Ht (Ho & Hd & Ha & Hb & He).
  pose proof (conservation_inv _ _ HI) as Hc.
  pose proof (i_lost0 _ _ HI discard_credits) as Hl. pose proof (i_sofar _ _ HI) as Hsf.
  unfold outstanding, in_hand in Hc. rewrite Ho, Hd, Ha, Hb, He, Hl in Hc. cbn in Hc.
  split; [lia|]. destruct (awire s) as [|a r]; [left; cbn in Hc; lia|right; discriminate].
Qed.

Lemma progress W P dmp c ops :
  1 <= W -> Forall op_wf ops ->
  let s := run (init2 W P dmp c) ops in
  quiescent s ->
  W - W / 10 <= ow s + sum (awire s) /\ (0 < ow s \/ awire s <> []).
Proof.
  intros HW Hwf s Hq. assert (H0 : 0 <= W) by lia.
  destruct (reach_inv W P W dmp c ops H0 H0 Hwf) as (HI & _ & Ht). fold (init2 W P dmp c) in HI, Ht. fold s in HI, Ht.
  destruct (threshold_spec W H0) as [_ Hlt]. specialize (Hlt HW). rewrite <- Ht in Hlt.
  destruct (progress_inv W s HI Hlt Hq) as [A B]. split; [|exact B].
  unfold set_window_in_window_threshold in Ht. lia.
Qed.

Lemma send_decreases W0 s k n :
  Inv W0 s -> eof s = false -> 0 < ow s -> 0 < n ->
  let '(s', r) := step s (OSend k n) in
  r = Z.min n (Z.min (ow s) (omp s - 64)) /\ 0 < r <= n /\ ow s' = ow s - r /\
  obox s' = obox s ++ [mk_msg k r] /\ g_res s' = g_res s + r.
Proof.
  intros HI He Hw Hn. pose proof (i_omp _ _ HI) as i_omp0. unfold step. rewrite He.
  destruct (send_must_wait (ow s)) eqn:E.
  { unfold send_must_wait in E. lia. }
  destruct (send_alloc (ow s) (omp s) n) as [size ow'] eqn:Ha.
  destruct (send_alloc_spec _ _ _ _ _ Hw i_omp0 (Z.lt_le_incl _ _ Hn) Ha) as (Hs1 & Hs2 & Hs3 & Hs4 & Hs5 & Hs6).
  destruct (send_nothing_spec size (proj1 Hs1)) as [Hz Hnz].
  destruct (send_nothing size) eqn:En.
  - specialize (Hz eq_refl). lia.
  - cbn [ow obox g_res]. repeat split; try lia; reflexivity.
Qed.

Lemma drain {A} (f : st -> list A) o (P : st -> Prop) :
  (forall s x r, P s -> f s = x :: r -> P (fst (step s o)) /\ f (fst (step s o)) = r) ->
  forall s, P s -> P (run s (repeat o (length (f s)))) /\ f (run s (repeat o (length (f s)))) = [].
Proof.
  intros H s. remember (length (f s)) as n eqn:E. revert s E. induction n as [|n IH]; intros s E Hs.
  - split; [exact Hs|]. now apply length_zero_iff_nil.
  - destruct (f s) as [|x r] eqn:F; [discriminate|]. destruct (H s x r Hs F) as [P1 F1].
    cbn [repeat run]. apply IH; [rewrite F1; now injection E|exact P1].
Qed.

(* what stands between the sender's call and the application's read *)
Definition inbound (s : st) := (obox s, dwire s, bout s, berr s).

Lemma deliver_spec s m r :
  dwire s = m :: r -> dwire (fst (step s ODeliver)) = r /\ obox (fst (step s ODeliver)) = obox s.
Proof.
  intros E. unfold step. rewrite E. destruct m as [l|c l]; [easy|].
  destruct (ext_discarded c); [destruct ext_discard_credits; [destruct (credit s l) as [[? ?] ?]|]|destruct (comb s)];
    easy.
Qed.

Lemma recv_whole (s : st) (err : bool) :
  let b := if err then berr s else bout s in
  0 <= b ->
  inbound (fst (step s (ORecv err b))) =
  (obox s, dwire s, if err then bout s else 0, if err then 0 else berr s).
Proof.
  intros b Hb. unfold step. fold b. destruct (b =? 0) eqn:E.
  - unfold inbound. subst b. destruct err; cbn; repeat f_equal; lia.
  - rewrite Z.leb_refl. destruct (credit _ _) as [[? ?] ?]. unfold inbound. subst b.
    destruct err; cbn; repeat f_equal; lia.
Qed.

Lemma emitadj_spec s a r :
  abox s = a :: r ->
  abox (fst (step s (OEmitAdj 0))) = r /\ inbound (fst (step s (OEmitAdj 0))) = inbound s.
Proof. intros E. unfold step. now rewrite E. Qed.

Lemma deliveradj_spec s a r :
  awire s = a :: r ->
  let s' := fst (step s ODeliverAdj) in awire s' = r /\ inbound s' = inbound s /\ abox s' = abox s.
Proof. intros E. unfold step. now rewrite E. Qed.

(* [eof] and [g_res] are what only the sender's own calls change ([step_frame]) *)
Definition kept W0 (s s' : st) : Prop :=
  Inv W0 s' /\ thr s' = thr s /\ eof s' = eof s /\ g_res s' = g_res s.

Lemma step_kept W0 s x o :
  kept W0 s x -> op_wf o -> match o with OSend _ _ | OShutW => False | _ => True end ->
  kept W0 s (fst (step x o)).
Proof.
  intros (HI & A & C & D) Hwf Ho. destruct (step_frame x o) as (_ & A' & _ & D' & C').
  split; [now apply step_inv|]. destruct o; try contradiction; repeat split; congruence.
Qed.

Lemma read_all_spec W0 s0 s :
  kept W0 s0 s -> kept W0 s0 (read_all s) /\ inbound (read_all s) = (obox s, dwire s, 0, 0).
Proof.
  intros K. unfold read_all. pose proof (recv_whole s false (i_bout _ _ (proj1 K))) as R1.
  remember (fst (step s (ORecv false (bout s)))) as s1 eqn:E.
  assert (K1 : kept W0 s0 s1) by (subst s1; apply step_kept; [exact K|exact (i_bout _ _ (proj1 K))|exact I]).
  split; [apply step_kept; [exact K1|exact (i_berr _ _ (proj1 K1))|exact I]|].
  rewrite (recv_whole s1 true (i_berr _ _ (proj1 K1))). now injection R1 as -> -> -> _.
Qed.

Lemma flush_out_spec W0 s0 s :
  kept W0 s0 s -> kept W0 s0 (flush_out s) /\ obox (flush_out s) = [].
Proof.
  apply (drain obox (OEmit 0) (kept W0 s0)).
  intros x m r K E. split; [now apply step_kept|]. unfold step. now rewrite E.
Qed.

Lemma drain_data_spec W0 s0 s :
  kept W0 s0 s /\ obox s = [] ->
  (kept W0 s0 (drain_data s) /\ obox (drain_data s) = []) /\ dwire (drain_data s) = [].
Proof.
  apply (drain dwire ODeliver (fun x => kept W0 s0 x /\ obox x = [])).
  intros x m r [K O] E. destruct (deliver_spec x m r E) as [D O'].
  split; [split; [now apply step_kept|congruence]|exact D].
Qed.

Lemma flush_adj_spec W0 s0 s :
  kept W0 s0 s /\ inbound s = ([], [], 0, 0) ->
  (kept W0 s0 (flush_adj s) /\ inbound (flush_adj s) = ([], [], 0, 0)) /\ abox (flush_adj s) = [].
Proof.
  apply (drain abox (OEmitAdj 0) (fun x => kept W0 s0 x /\ inbound x = ([], [], 0, 0))).
  intros x a r [K Q] E. destruct (emitadj_spec x a r E) as [A Q'].
  split; [split; [now apply step_kept|congruence]|exact A].
Qed.

Lemma drain_adj_spec W0 s0 s :
  (kept W0 s0 s /\ inbound s = ([], [], 0, 0)) /\ abox s = [] ->
  ((kept W0 s0 (drain_adj s) /\ inbound (drain_adj s) = ([], [], 0, 0)) /\ abox (drain_adj s) = []) /\
  awire (drain_adj s) = [].
Proof.
  apply (drain awire ODeliverAdj (fun x => (kept W0 s0 x /\ inbound x = ([], [], 0, 0)) /\ abox x = [])).
  intros x a r [[K Q] A] E. destruct (deliveradj_spec x a r E) as (W' & Q' & A').
  split; [split; [split; [now apply step_kept|]|]; congruence|exact W'].
Qed.

Lemma settled_intro s : inbound s = ([], [], 0, 0) -> abox s = [] -> awire s = [] -> settled s.
Proof. intros [= O D Bo Be] A W. repeat split; assumption. Qed.

Lemma settle_spec W0 s : Inv W0 s -> kept W0 s (settle s) /\ settled (settle s).
Proof.
  intros HI. unfold settle.
  assert (K0 : kept W0 s s) by (split; [exact HI|easy]).
  destruct (drain_data_spec W0 s _ (flush_out_spec W0 s s K0)) as [[K2 O2] D2].
  destruct (read_all_spec W0 s _ K2) as [K3 Q3]. rewrite O2, D2 in Q3.
  destruct (drain_adj_spec W0 s _ (flush_adj_spec W0 s _ (conj K3 Q3))) as [[[K5 Q5] A5] W5].
  split; [exact K5|now apply settled_intro].
Qed.

Lemma settled_emitted W0 s : Inv W0 s -> settled s -> emitted s = g_res s /\ emitted s = g_cons s + g_disc s.
Proof.
  intros HI [(Ho & Hd & Ha & Hb & He) Hw]. unfold emitted.
  pose proof (i_emit _ _ HI) as i_emit0. pose proof (i_wire _ _ HI) as i_wire0.
  rewrite Ho in i_emit0. rewrite Hd, Hb, He in i_wire0. cbn in i_emit0, i_wire0. lia.
Qed.

Lemma settled_open W0 s : Inv W0 s -> thr s < W0 -> settled s -> 0 < ow s.
Proof.
  intros HI Ht [Hq Ha]. destruct (progress_inv _ _ HI Ht Hq) as [_ [H|H]]; [exact H|contradiction].
Qed.

Lemma round_spec W0 s k n :
  Inv W0 s -> thr s < W0 -> settled s -> eof s = false -> 0 < n ->
  let '(s', p') := round k n s in
  Inv W0 s' /\ thr s' = thr s /\ settled s' /\ eof s' = false /\ 0 <= p' < n /\
  g_res s' = g_res s + (n - p').
Proof.
  intros HI Ht Hs He Hn. pose proof (settled_open _ _ HI Ht Hs) as Hw. unfold round.
  pose proof (send_decreases W0 s k n HI He Hw Hn) as Hd.
  pose proof (step_inv W0 s (OSend k n) HI ltac:(cbn; lia)) as HI1.
  destruct (step_frame s (OSend k n)) as (_ & Ht1 & _ & _ & He1).
  destruct (step s (OSend k n)) as [s1 r]. cbn [fst] in HI1, Ht1, He1.
  destruct Hd as (_ & Hrn & _ & _ & Hg).
  destruct (settle_spec W0 s1 HI1) as ((I' & T' & E' & G') & S').
  split; [exact I'|]. split; [congruence|]. split; [exact S'|]. split; [congruence|]. lia.
Qed.

Lemma transfer_completes_inv W0 k : forall fuel n s,
  Inv W0 s -> thr s < W0 -> settled s -> eof s = false -> 0 <= n -> n <= Z.of_nat fuel ->
  let '(s', p) := transfer fuel k n s in p = 0 /\ Inv W0 s' /\ settled s' /\ g_res s' = g_res s + n.
Proof.
  induction fuel as [|f IH]; intros n s HI Ht Hs He Hn Hf.
  - cbn. split; [lia|]. split; [assumption|]. split; [assumption|lia].
  - cbn [transfer]. destruct (n <=? 0) eqn:E; [split; [lia|]; split; [assumption|]; split; [assumption|lia]|].
    pose proof (round_spec W0 s k n HI Ht Hs He ltac:(lia)) as Hr.
    destruct (round k n s) as [s' p']. destruct Hr as (I' & T' & S' & E' & Hp & G').
    specialize (IH p' s' I' ltac:(lia) S' E' ltac:(lia) ltac:(lia)).
    destruct (transfer f k p' s') as [s'' p'']. destruct IH as (A & B & C & D).
    split; [assumption|]. split; [assumption|]. split; [assumption|lia].
Qed.
