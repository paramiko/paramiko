(* The handler state after a history is characterised field by field ([agent_iff], [x11_iff],
   [tcp_iff]) from what one event does to the field ([step_*]); with the generated chain read off by
   [open_chain_spec] this gives the four ways a client answers a channel open ([open_client_cases]). *)
From Coq Require Import ZArith List Bool Lia.
From PV Require Import Bytes ListFacts C18_gen C18.
Import ListNotations.
Open Scope Z_scope.

Lemma handlers_after_app hist e :
  handlers_after (hist ++ [e]) = step (handlers_after hist) e.
Proof. unfold handlers_after. rewrite fold_left_app. reflexivity. Qed.

Lemma step_agent h e : h_agent (step h e) = true <-> h_agent h = true \/ e = EvAgent.
Proof. destruct e as [[]| |[] []|[]|[]]; cbn; intuition discriminate. Qed.

Lemma step_x11 h e : h_x11 (step h e) = true <-> h_x11 h = true \/ e = EvX11 true.
Proof. destruct e as [[]| |[] []|[]|[]]; cbn; intuition discriminate. Qed.

Lemma step_tcp h e :
  h_tcp (step h e) = true <->
  e = EvForward true true \/ (h_tcp h = true /\ is_effective_cancel e = false).
Proof. destruct e as [[]| |[] []|[]|[]]; cbn; intuition discriminate. Qed.

Lemma set_once_iff (f : handlers -> bool) ev hist :
  f no_handlers = false -> (forall h e, f (step h e) = true <-> f h = true \/ e = ev) ->
  f (handlers_after hist) = true <-> In ev hist.
Proof.
  intros H0 Hstep. unfold handlers_after.
  rewrite (fold_left_collect step (fun h => f h = true) (fun e => e = ev) Hstep), H0.
  split; [intros [H|(e & He & ->)]; [discriminate H | exact He] | eauto].
Qed.

Lemma agent_iff hist : h_agent (handlers_after hist) = true <-> In EvAgent hist.
Proof. exact (set_once_iff h_agent EvAgent hist eq_refl step_agent). Qed.

Lemma x11_iff hist : h_x11 (handlers_after hist) = true <-> In (EvX11 true) hist.
Proof. exact (set_once_iff h_x11 (EvX11 true) hist eq_refl step_x11). Qed.

Lemma forward_active_snoc hist e :
  forward_active (hist ++ [e]) <->
  e = EvForward true true \/ (forward_active hist /\ is_effective_cancel e = false).
Proof.
  unfold forward_active. split.
  - intros (pre & post & Heq & Hall). destruct post as [|x post' _] using rev_ind.
    + apply app_inj_tail in Heq as [_ <-]. now left.
    + rewrite app_comm_cons, app_assoc in Heq. apply app_inj_tail in Heq as [-> <-].
      rewrite forallb_app in Hall. apply andb_true_iff in Hall as [Hall Hx]. cbn in Hx.
      right. split; [eauto|]. now destruct (is_effective_cancel e).
  - intros [->|[(pre & post & -> & Hall) Hc]].
    + exists hist, []. split; reflexivity.
    + exists pre, (post ++ [e]). split; [now rewrite <- app_assoc|].
      rewrite forallb_app, Hall. cbn. now rewrite Hc.
Qed.

Lemma tcp_iff hist : h_tcp (handlers_after hist) = true <-> forward_active hist.
Proof.
  induction hist as [|e hist IH] using rev_ind.
  - split; [discriminate|]. intros (pre & post & Heq & _). destruct pre; discriminate.
  - now rewrite handlers_after_app, step_tcp, forward_active_snoc, IH.
Qed.

Lemma open_chain_spec h kind :
  open_chain open_branches h kind =
    if zlist_eqb kind s_agent && h_agent h then Some 0
    else if zlist_eqb kind s_x11 && h_x11 h then Some 1
    else if zlist_eqb kind s_forwarded_tcpip && h_tcp h then Some 2
    else None.
Proof. reflexivity. Qed.

Lemma open_client_cases hist kind reason :
  let d := channel_open false (handlers_after hist) kind reason in
  (d = Accept 0 /\ kind = s_agent /\ In EvAgent hist) \/
  (d = Accept 1 /\ kind = s_x11 /\ In (EvX11 true) hist) \/
  (d = Accept 2 /\ kind = s_forwarded_tcpip /\ forward_active hist) \/
  d = Reject OPEN_FAILED_ADMINISTRATIVELY_PROHIBITED.
Proof.
  unfold channel_open. rewrite open_chain_spec. cbv zeta.
  assert (K : forall s b, zlist_eqb kind s && b = true -> kind = s /\ b = true).
  { intros s b [Ek Eb]%andb_true_iff. apply zlist_eqb_eq in Ek. auto. }
  destruct (_ && h_agent _) eqn:E0; [apply K in E0 as [Ek Eh%agent_iff]; auto|].
  destruct (_ && h_x11 _) eqn:E1; [apply K in E1 as [Ek Eh%x11_iff]; auto|].
  destruct (_ && h_tcp _) eqn:E2; [apply K in E2 as [Ek Eh%tcp_iff]; auto 6|].
  auto 6.
Qed.

Lemma open_fresh_client kind reason :
  channel_open false (handlers_after []) kind reason = Reject OPEN_FAILED_ADMINISTRATIVELY_PROHIBITED.
Proof.
  unfold channel_open. rewrite open_chain_spec. cbn [handlers_after fold_left no_handlers h_agent h_x11 h_tcp].
  now rewrite !andb_false_r.
Qed.

Lemma lookup_in br key b : request_lookup br key = Some b -> In (key, b) br.
Proof.
  induction br as [|[k n] br IH]; cbn; [discriminate|].
  destruct (zlist_eqb key k) eqn:E; [|intros H; right; exact (IH H)].
  apply zlist_eqb_eq in E. intros [= ->]. subst. now left.
Qed.

Lemma request_no_server key srv :
  channel_request_ok false key srv = true -> key = s_exit_status \/ key = s_xon_xoff.
Proof.
  unfold channel_request_ok. destruct (request_lookup request_branches key) as [[]|] eqn:E; try discriminate.
  intros _. apply lookup_in in E.
  assert (H : In key (map fst (filter (fun b : list Z * bool => negb (snd b)) request_branches))).
  { apply in_map_iff. exists (key, false). split; [reflexivity|]. apply filter_In. now split. }
  cbn in H. destruct H as [H|[H|[]]]; auto.
Qed.

Lemma named_requests_need_server :
  forallb (fun b : list Z * bool => snd b || zlist_eqb (fst b) s_exit_status || zlist_eqb (fst b) s_xon_xoff)
          request_branches = true.
Proof. vm_compute. reflexivity. Qed.
