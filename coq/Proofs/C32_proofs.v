(* C32 — lemmas about the model of SFTPServer._check_file.  The inner loop is followed through `want`,
   the bytes it still has to read (what the block wants, or what the file has left): one read
   delivers a chunk of them, or all (inner_ok).  The outer loop emits one digest per block of the
   specification, unrolled from the front by spec_blocks_cons / spec_blocks_next (outer_ok);
   trace_ok and digests put the two together for a whole request. *)
From Coq Require Import ZArith List Bool Lia.
From PV Require Import Bytes ListFacts C32_gen C32.
Import ListNotations.
Open Scope Z_scope.

Lemma slice_length file o n :
  0 <= o -> Z.of_nat (length (slice file o n)) = rdlen (Z.of_nat (length file)) o n.
Proof. intros Ho. unfold slice, rdlen. rewrite firstn_length, skipn_length. lia. Qed.

Lemma slice_app file o n m :
  0 <= o -> 0 <= n -> 0 <= m -> slice file o n ++ slice file (o + n) m = slice file o (n + m).
Proof.
  intros Ho Hn Hm. unfold slice.
  rewrite (Z2Nat.inj_add o n), (Z2Nat.inj_add n m) by lia.
  rewrite skipn_add. apply firstn_skipn_app.
Qed.

Lemma slice_clip file o n :
  0 <= o -> slice file o n = slice file o (rdlen (Z.of_nat (length file)) o n).
Proof.
  intros Ho. unfold slice, rdlen.
  destruct (Z.le_gt_cases n (Z.of_nat (length file) - o)) as [H|H].
  - f_equal. lia.
  - rewrite !firstn_all2; [reflexivity| |]; rewrite skipn_length; lia.
Qed.

Lemma slice_zero file o : slice file o 0 = [].
Proof. reflexivity. Qed.

Lemma ext_data_cons file r R : ext_data file (r :: R) = slice file (fst r) (snd r) ++ ext_data file R.
Proof. reflexivity. Qed.

Lemma spec_blocks_nil start stop bs : stop <= start -> spec_blocks start stop bs = [].
Proof.
  intros H. unfold spec_blocks, nblocks. destruct (stop <=? start) eqn:E; [reflexivity|lia].
Qed.

Lemma nblocks_nonneg start stop bs : 0 < bs -> 0 <= nblocks start stop bs.
Proof.
  intros Hbs. unfold nblocks. destruct (stop <=? start) eqn:E; [lia|].
  assert (0 <= (stop - start - 1) / bs) by (apply Z.div_pos; lia). lia.
Qed.

Lemma nblocks_step start stop bs :
  0 < bs -> start < stop -> nblocks start stop bs = 1 + nblocks (start + bs) stop bs.
Proof.
  intros Hbs Hlt. unfold nblocks.
  destruct (stop <=? start) eqn:E1; [lia|].
  destruct (stop <=? start + bs) eqn:E2.
  - rewrite Z.div_small by lia. lia.
  - replace (stop - start - 1) with ((stop - (start + bs) - 1) + 1 * bs) by lia.
    rewrite Z.div_add by lia. lia.
Qed.

Lemma block_ext_shift start stop bs i :
  block_ext start stop bs (S i) = block_ext (start + bs) stop bs i.
Proof. unfold block_ext. rewrite Nat2Z.inj_succ. f_equal; [lia|f_equal; lia]. Qed.

Lemma spec_blocks_cons start stop bs :
  0 < bs -> start < stop ->
  spec_blocks start stop bs = (start, Z.min bs (stop - start)) :: spec_blocks (start + bs) stop bs.
Proof.
  intros Hbs Hlt. unfold spec_blocks. rewrite (nblocks_step start stop bs Hbs Hlt).
  pose proof (nblocks_nonneg (start + bs) stop bs Hbs) as Hk.
  rewrite Z2Nat.inj_add by lia. change (Z.to_nat 1) with 1%nat. cbn [Nat.add seq map].
  f_equal.
  - unfold block_ext. cbn [Z.of_nat]. f_equal; [lia|f_equal; lia].
  - rewrite <- seq_shift, map_map. apply map_ext. intros i. apply block_ext_shift.
Qed.

(* the same from where the loop goes on: after a short last block nothing is left either way *)
Lemma spec_blocks_next start stop bs :
  0 < bs -> start < stop ->
  spec_blocks start stop bs
  = (start, Z.min bs (stop - start)) :: spec_blocks (start + Z.min bs (stop - start)) stop bs.
Proof.
  intros Hbs Hlt. rewrite spec_blocks_cons by assumption. f_equal.
  destruct (Z.min_spec bs (stop - start)) as [[_ ->]|[H ->]]; [reflexivity|].
  rewrite !spec_blocks_nil by lia. reflexivity.
Qed.

Definition read_ok (chunk : Z) (r : read) : Prop := 0 < snd r <= chunk.

(* The bytes the inner loop still has to read: what the block wants, or what the file has left.
   The loop lemmas use it through the facts below only, which keeps min and max out of their
   arithmetic. *)
Definition want (size blocklen count offset : Z) : Z :=
  Z.min (blocklen - count) (Z.max 0 (size - offset)).

Lemma want_range size blocklen count offset :
  count <= blocklen -> 0 <= want size blocklen count offset <= blocklen - count.
Proof. unfold want. lia. Qed.

Lemma rdlen_min size o k : 0 <= k -> rdlen size o k = Z.min k (Z.max 0 (size - o)).
Proof. unfold rdlen. lia. Qed.

(* One read delivers a chunk of them, or all.  (Done in steps because lia pays for every min
   and max in sight.) *)
Lemma want_read size chunk blocklen count offset :
  0 < chunk -> count < blocklen ->
  let n := rdlen size offset (Z.min (blocklen - count) chunk) in
  n = Z.min (want size blocklen count offset) chunk /\
  want size blocklen (count + n) (offset + n) = want size blocklen count offset - n.
Proof.
  intros Hc Hlt n. unfold want.
  assert (Hn : n = Z.min (Z.min (blocklen - count) chunk) (Z.max 0 (size - offset)))
    by (apply rdlen_min; lia).
  replace (size - (offset + n)) with (size - offset - n) by ring.
  replace (blocklen - (count + n)) with (blocklen - count - n) by ring.
  assert (Z.max 0 (size - offset - n) = Z.max 0 (size - offset) - n) as -> by lia.
  revert Hn. generalize (Z.max 0 (size - offset)) (blocklen - count). clearbody n. lia.
Qed.

(* the outer loop's first block, seen from the specification's end of range min(stop, size) *)
Lemma want_block size stop bs offset :
  0 < bs -> offset < stop ->
  want size (Z.min bs (stop - offset)) 0 offset = Z.max 0 (Z.min bs (Z.min stop size - offset)).
Proof.
  intros Hbs Hlt. unfold want.
  rewrite <- (Z.sub_min_distr_r stop size offset), Z.min_assoc, Z.max_min_distr, Z.sub_0_r.
  f_equal. lia.
Qed.

Section WithFile.
  Variable chunk : Z.
  Variable file : list Z.
  Let size := Z.of_nat (length file).
  Hypothesis Hchunk : 0 < chunk.

  (* End of file is reported iff the block was cut short.  Fuel: one read per chunk, and one more
     that may be needed to see the end of the file. *)
  Lemma inner_ok : forall fuel blocklen count offset reads,
    let m := want size blocklen count offset in
    0 <= offset -> 0 <= count <= blocklen ->
    m + chunk <= Z.of_nat fuel * chunk ->
    exists R,
      inner chunk size fuel blocklen count offset reads
        = Some (reads ++ R, count + m, offset + m, count + m <? blocklen) /\
      ext_data file R = slice file offset m /\
      Forall (read_ok chunk) R.
  Proof.
    induction fuel as [|f IH]; intros blocklen count offset reads m Ho Hc Hf;
      pose proof (want_range size blocklen count offset (proj2 Hc)) as Hm; fold m in Hm; [lia|].
    cbn [inner]. destruct (count <? blocklen) eqn:Ecb.
    - set (chunklen := Z.min (blocklen - count) chunk).
      assert (Hcl : read_ok chunk (offset, chunklen)) by (unfold read_ok, chunklen; cbn; lia).
      destruct (want_read size chunk blocklen count offset Hchunk) as [Hn Hm']; [lia|].
      pose proof (slice_clip file offset chunklen Ho) as Hclip.
      fold size chunklen in Hn, Hm', Hclip. fold m in Hn, Hm'. clearbody chunklen.
      set (n := rdlen size offset chunklen) in *.
      destruct (n =? 0) eqn:En.
      + (* end of file *)
        assert (m = 0) as -> by lia. exists [(offset, chunklen)]. split; [|split].
        * rewrite !Z.add_0_r, Ecb. reflexivity.
        * rewrite ext_data_cons, app_nil_r. cbn [fst snd]. rewrite Hclip. f_equal. lia.
        * constructor; [exact Hcl|constructor].
      + destruct (IH blocklen (count + n) (offset + n) (reads ++ [(offset, chunklen)]))
          as (R' & HR & HD & HF); [lia|lia| |].
        { rewrite Hm'. destruct f; [lia|]. pose proof (Z.mul_nonneg_nonneg (Z.of_nat f) chunk). lia. }
        rewrite Hm' in HR, HD.
        exists ((offset, chunklen) :: R'). split; [|split].
        * rewrite HR, <- app_assoc.
          replace (count + n + (m - n)) with (count + m) by lia.
          replace (offset + n + (m - n)) with (offset + m) by lia. reflexivity.
        * rewrite ext_data_cons, HD. cbn [fst snd]. rewrite Hclip, slice_app by lia.
          f_equal. lia.
        * constructor; [exact Hcl|exact HF].
    - assert (m = 0) as -> by lia. exists []. split; [|split].
      + rewrite app_nil_r, !Z.add_0_r, Ecb. reflexivity.
      + reflexivity.
      + constructor.
  Qed.

  (* every block but the last has at least 256 bytes, which is what the fuel counts *)
  Lemma outer_ok : forall fuel stop bs offset out,
    0 <= offset -> 256 <= bs ->
    Z.max 0 (Z.min stop size - offset) + 256 <= Z.of_nat fuel * 256 ->
    exists T,
      outer chunk size fuel stop bs offset out = Some (out ++ T) /\
      map (ext_data file) T
        = map (fun b => slice file (fst b) (snd b)) (spec_blocks offset (Z.min stop size) bs) /\
      Forall (Forall (read_ok chunk)) T.
  Proof.
    induction fuel as [|f IH]; intros stop bs offset out Ho Hbs Hf; [lia|].
    cbn [outer]. destruct (offset <? stop) eqn:Eos.
    - set (blocklen := Z.min bs (stop - offset)).
      destruct (inner_ok (inner_fuel chunk size blocklen offset) blocklen 0 offset [] Ho)
        as (R & HR & HD & HF); [lia| |].
      { (* the model's fuel is a rounded-up quotient; the loops are followed with the product instead *)
        pose proof (want_range size blocklen 0 offset). pose proof (ceil_mul (want size blocklen 0 offset) chunk).
        unfold inner_fuel. unfold want in *. rewrite Z.sub_0_r in *. lia. }
      rewrite HR. cbn [app Z.add].
      pose proof (want_block size stop bs offset) as Hm. fold blocklen in Hm.
      set (m := want size blocklen 0 offset) in *. remember (Z.min stop size) as stop' eqn:Es.
      specialize (Hm ltac:(lia) ltac:(lia)). clearbody m.
      destruct (0 <? m) eqn:Em.
      + (* a digest is emitted *)
        rewrite (spec_blocks_next offset stop' bs) by lia.
        replace (Z.min bs (stop' - offset)) with m by lia.
        cbn [map fst snd]. rewrite <- HD.
        destruct (m <? blocklen) eqn:Eeof.
        * (* cut short by end of file: last block *)
          exists [R]. split; [reflexivity|split].
          -- now rewrite spec_blocks_nil by lia.
          -- constructor; [exact HF|constructor].
        * destruct (IH stop bs (offset + m) (out ++ [R])) as (T' & HT & HM & HFT); [lia|lia| |].
          { rewrite <- Es. lia. }
          rewrite <- Es in HM.
          exists (R :: T'). split; [|split].
          -- rewrite HT, <- app_assoc. reflexivity.
          -- cbn [map]. now rewrite HM.
          -- constructor; [exact HF|exact HFT].
      + (* at or past end of file: nothing more *)
        assert (Heof : (m <? blocklen) = true) by lia. rewrite Heof.
        exists []. split; [now rewrite app_nil_r|split].
        * now rewrite spec_blocks_nil by lia.
        * constructor.
    - exists []. split; [now rewrite app_nil_r|split].
      + now rewrite spec_blocks_nil by lia.
      + constructor.
  Qed.
End WithFile.

Lemma trace_ok chunk file start length bs :
  0 < chunk -> 0 <= start ->
  let size := Z.of_nat (List.length file) in
  256 <= eff_bs size start length bs ->
  exists T,
    check_trace chunk size start length bs = Digests T /\
    map (ext_data file) T
      = map (fun b => slice file (fst b) (snd b))
            (spec_blocks start (range_stop size start length) (eff_bs size start length bs)) /\
    Forall (Forall (read_ok chunk)) T.
Proof.
  intros Hc Hs size Hbs. unfold check_trace. fold size. change MIN_BLOCK with 256.
  destruct (eff_bs size start length bs <? 256) eqn:E; [lia|].
  set (stop := start + eff_length size start length).
  destruct (outer_ok chunk file Hc (outer_fuel size stop start) stop (eff_bs size start length bs)
                     start [] Hs Hbs)
    as (T & HT & HM & HF).
  { unfold outer_fuel. fold size. set (a := Z.max 0 _).
    pose proof (ceil_mul a 256) as H. replace (a + 256 - 1) with (a + 255) in H by lia. lia. }
  fold size in HT. rewrite HT. exists T. auto.
Qed.

Lemma digests hash chunk file start length bs :
  0 < chunk -> 0 <= start ->
  256 <= eff_bs (Z.of_nat (List.length file)) start length bs ->
  check_file hash chunk file start length bs = Sums (spec_sums hash file start length bs).
Proof.
  intros Hc Hs Hbs. destruct (trace_ok chunk file start length bs Hc Hs Hbs) as (T & HT & HM & _).
  unfold check_file, spec_sums. rewrite HT. f_equal.
  rewrite <- (flat_map_map hash (ext_data file) T), HM, flat_map_map. reflexivity.
Qed.

Lemma small_block_rejected hash chunk file start length bs :
  eff_bs (Z.of_nat (List.length file)) start length bs < 256 ->
  check_file hash chunk file start length bs = Fail SFTP_FAILURE.
Proof.
  intros H. unfold check_file, check_trace. change MIN_BLOCK with 256.
  destruct (eff_bs (Z.of_nat (List.length file)) start length bs <? 256) eqn:E; [reflexivity|lia].
Qed.

Lemma terminates hash chunk file start length bs :
  0 < chunk -> 0 <= start -> check_file hash chunk file start length bs <> Diverges.
Proof.
  intros Hc Hs.
  destruct (Z.lt_ge_cases (eff_bs (Z.of_nat (List.length file)) start length bs) 256) as [H|H].
  - rewrite small_block_rejected by exact H. discriminate.
  - rewrite digests by assumption. discriminate.
Qed.
