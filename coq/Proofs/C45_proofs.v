(* C45 -- the sign request is the encoding of a C39 field list (request_is_encode_all), so what a
   reader gets back is C39's round trip; the generated flag map agrees with the rule written out
   in the model (flags_spec); and over the framed connection the outcome is parse_reply of the
   reply's body (sign_over_frame). *)
From Coq Require Import ZArith List Bool Lia.
From PV Require Import Bytes ListFacts C39 C39_proofs C45_gen C45.
Import ListNotations.
Open Scope Z_scope.

(* the generated map, looked up in its own order, implements the statement's rule.  The orders
   differ in one place: the map tries rsa-sha2-512 before the certificate form of rsa-sha2-256. *)
Lemma flags_spec alg : sign_flags alg = spec_flags alg.
Proof.
  destruct alg as [a|]; [|reflexivity].
  change (sign_flags (Some a)) with
    (if zlist_eqb a n_rsa_sha2_256 then 2 else if zlist_eqb a n_rsa_sha2_512 then 4
     else if zlist_eqb a (n_rsa_sha2_256 ++ cert_suffix) then 2
     else if zlist_eqb a (n_rsa_sha2_512 ++ cert_suffix) then 4 else 0).
  unfold spec_flags.
  destruct (zlist_eqb a n_rsa_sha2_256); [reflexivity|].
  destruct (zlist_eqb a n_rsa_sha2_512) eqn:E; [|reflexivity].
  apply zlist_eqb_eq in E. subst a. reflexivity.
Qed.

Lemma spec_flags_cases alg :
  (spec_flags alg = 2 /\ (alg = Some n_rsa_sha2_256 \/ alg = Some (n_rsa_sha2_256 ++ cert_suffix))) \/
  (spec_flags alg = 4 /\ (alg = Some n_rsa_sha2_512 \/ alg = Some (n_rsa_sha2_512 ++ cert_suffix))) \/
  (spec_flags alg = 0 /\ alg <> Some n_rsa_sha2_256 /\ alg <> Some (n_rsa_sha2_256 ++ cert_suffix)
                      /\ alg <> Some n_rsa_sha2_512 /\ alg <> Some (n_rsa_sha2_512 ++ cert_suffix)).
Proof.
  destruct alg as [a|]; [|right; right; cbn; repeat split; discriminate].
  unfold spec_flags.
  destruct (zlist_eqb_spec a n_rsa_sha2_256) as [->|E1]; [left; auto|].
  destruct (zlist_eqb_spec a (n_rsa_sha2_256 ++ cert_suffix)) as [->|E2]; [left; auto|].
  destruct (zlist_eqb_spec a n_rsa_sha2_512) as [->|E3]; [right; left; auto|].
  destruct (zlist_eqb_spec a (n_rsa_sha2_512 ++ cert_suffix)) as [->|E4]; [right; left; auto|].
  right. right. cbn [orb]. repeat split; congruence.
Qed.

Lemma flags_exact alg :
  (sign_flags alg = 2 <-> alg = Some n_rsa_sha2_256 \/ alg = Some (n_rsa_sha2_256 ++ cert_suffix)) /\
  (sign_flags alg = 4 <-> alg = Some n_rsa_sha2_512 \/ alg = Some (n_rsa_sha2_512 ++ cert_suffix)) /\
  (sign_flags alg = 2 \/ sign_flags alg = 4 \/ sign_flags alg = 0).
Proof.
  rewrite flags_spec.
  destruct (spec_flags_cases alg) as [(E & H)|[(E & H)|(E & N1 & N2 & N3 & N4)]]; rewrite E.
  - split; [tauto|]. split; [|auto]. split; [discriminate|].
    intros [->| ->]; destruct H as [H|H]; vm_compute in E; discriminate.
  - split; [|split; [tauto | auto]]. split; [discriminate|].
    intros [->| ->]; destruct H as [H|H]; vm_compute in E; discriminate.
  - split; [|split; [|auto]]; (split; [discriminate | intros [H|H]; contradiction]).
Qed.

Lemma request_is_encode_all blob inner data alg :
  sign_request blob inner data alg =
  encode_all [FByte 13; FString (key_asbytes blob inner); FString data; FU32 (spec_flags alg)].
Proof.
  unfold sign_request. rewrite <- flags_spec. cbn [encode_all encode_field].
  change c_sign_request with [13].
  destruct (add_string (key_asbytes blob inner)) as [a|e]; cbn [bind]; [|reflexivity].
  destruct (add_string data) as [b|e]; cbn [bind]; [|reflexivity].
  destruct (pack_u32 (sign_flags alg)) as [c|e]; cbn [bind]; [|reflexivity].
  now rewrite app_nil_r.
Qed.

Lemma request_decodes blob inner data alg msg rest :
  sign_request blob inner data alg = Ok msg ->
  decode_all [KByte; KString; KString; KU32] (msg ++ rest) 0 =
  ([FByte 13; FString (key_asbytes blob inner); FString data; FU32 (spec_flags alg)], length msg).
Proof.
  intros H. rewrite request_is_encode_all in H.
  refine (roundtrip_at _ (msg ++ rest) 0 msg rest _ H eq_refl). reflexivity.
Qed.

Lemma reply_other_type t rest : t <> sign_response -> parse_reply (t :: rest) = Raise SSHExc.
Proof.
  intros H. unfold parse_reply. rewrite (get_bytes_at (t :: rest) 0 1 [t] rest eq_refl eq_refl).
  cbn [hd]. destruct (Z.eqb_spec t sign_response); [contradiction | reflexivity].
Qed.

Lemma reply_empty : parse_reply [] = Raise SSHExc.
Proof. reflexivity. Qed.

Lemma reply_signature sig enc rest :
  add_string sig = Ok enc -> parse_reply (sign_response :: enc ++ rest) = Ok sig.
Proof.
  intros He. unfold parse_reply.
  rewrite (get_bytes_at _ 0 1 [sign_response] (enc ++ rest) eq_refl eq_refl). cbn [hd length Nat.add].
  rewrite Z.eqb_refl, (get_string_at (sign_response :: enc ++ rest) 1 sig enc rest He eq_refl).
  reflexivity.
Qed.

Lemma read_all_app a b : read_all (a ++ b) (Z.of_nat (length a)) = Ok (a, b).
Proof.
  unfold read_all. rewrite app_length.
  replace (_ <? _) with false by (symmetry; apply Z.ltb_ge; lia).
  rewrite Nat2Z.id, firstn_app_exact, skipn_app_exact. reflexivity.
Qed.

Lemma read_frame body extra :
  Z.of_nat (length body) < 2 ^ 32 ->
  bind (read_all (frame body ++ extra) 4) (fun '(d, rest) =>
  bind (read_all rest (be_decode d)) (fun '(b, _) => parse_reply b)) = parse_reply body.
Proof.
  intros H. unfold frame. rewrite <- app_assoc.
  pose proof (read_all_app (be_encode 4 (Z.of_nat (length body))) (body ++ extra)) as R.
  rewrite be_encode_length in R. change (Z.of_nat 4) with 4 in R. rewrite R. cbn [bind].
  rewrite be_decode_encode by (change (256 ^ Z.of_nat 4) with (2 ^ 32); lia).
  rewrite read_all_app. reflexivity.
Qed.

Lemma sign_over_frame blob inner data alg msg body extra :
  sign_request blob inner data alg = Ok msg ->
  Z.of_nat (length msg) < 2 ^ 32 -> Z.of_nat (length body) < 2 ^ 32 ->
  sign_ssh_data blob inner data alg (frame body ++ extra) = (frame msg, parse_reply body).
Proof.
  intros Hm Hl Hb. unfold sign_ssh_data. rewrite Hm.
  rewrite pack_u32_total by lia. cbv zeta. rewrite (read_frame body extra Hb). reflexivity.
Qed.
