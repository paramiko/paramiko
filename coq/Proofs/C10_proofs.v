(* C10 - lemmas about the re-key accounting model (Model/C10.v): what each packetizer operation
   does to each field, the head of the transport's loop, the invariant of ordinary traffic and
   one complete exchange. *)
From Coq Require Import ZArith List Bool Lia.
From PV Require Import Bytes C10_gen C10.
Import ListNotations.
Open Scope Z_scope.

Lemma run_app c s a b : run c s (a ++ b) = run c (run c s a) b.
Proof. revert s. induction a as [|o a IH]; intros s; cbn; [reflexivity|apply IH]. Qed.

Lemma codes_app c s a b : codes c s (a ++ b) = codes c s a ++ codes c (run c s a) b.
Proof. revert s. induction a as [|o a IH]; intros s; cbn; [reflexivity|]. now rewrite IH. Qed.

Lemma trun_cons c k t e r : trun c k t (e :: r) = trun c k (tstep c k t e) r.
Proof. reflexivity. Qed.

Lemma trun_app c k t a b : trun c k t (a ++ b) = trun c k (trun c k t a) b.
Proof. revert t. induction a as [|e a IH]; intros t; cbn; [reflexivity|apply IH]. Qed.

(* projections of explicit records and boolean connectives of constants, nothing else *)
Ltac fields := cbn [sb sp rb rp rbo rpo flag ic pk in_kex lki alive kexinits fst snd negb andb orb].

Lemma send_op_fields c s len :
  send_op c s len =
  let x := (RP c <=? sp s + 1) || (RB c <=? sb s + len) in
  mkP (sb s + len) (sp s + 1) (rb s) (rp s)
      (if flag s then rbo s else if x then 0 else rbo s)
      (if flag s then rpo s else if x then 0 else rpo s) (flag s || x) (ic s).
Proof.
  unfold send_op. cbv zeta.
  destruct (flag s), ((RP c <=? sp s + 1) || (RB c <=? sb s + len)); reflexivity.
Qed.

Lemma recv_op_fields c s len :
  recv_op c s len =
  let x := (RP c <=? rp s + 1) || (RB c <=? rb s + len) in
  (mkP (sb s) (sp s) (rb s + len) (rp s + 1)
       (if flag s then rbo s + len else if x then 0 else rbo s)
       (if flag s then rpo s + 1 else if x then 0 else rpo s) (flag s || x) (ic s),
   if flag s && ((OP c <=? rpo s + 1) || (OB c <=? rbo s + len)) then c_ssh else c_ok).
Proof.
  unfold recv_op. cbv zeta.
  destruct (flag s), ((RP c <=? rp s + 1) || (RB c <=? rb s + len)),
    ((OP c <=? rpo s + 1) || (OB c <=? rbo s + len)); reflexivity.
Qed.

(* With init_count in {0,1,2} the bit arithmetic of the cipher switches comes to this: the switch
   that finds the other direction's bit set completes the exchange. *)
Lemma set_out_fields s :
  ic_ok s ->
  set_out s = mkP 0 0 (rb s) (rp s) (rbo s) (rpo s)
                  (if ic s =? 2 then false else flag s) (if ic s =? 2 then 0 else 1).
Proof. unfold set_out, both_done. fields. intros [E|[E|E]]; rewrite E; reflexivity. Qed.

Lemma set_in_fields s :
  ic_ok s ->
  set_in s = mkP (sb s) (sp s) 0 0 0 0
                 (if ic s =? 1 then false else flag s) (if ic s =? 1 then 0 else 2).
Proof. unfold set_in, both_done. fields. intros [E|[E|E]]; rewrite E; reflexivity. Qed.

Lemma switch_clear s : flag s = false -> flag (set_out s) = false /\ flag (set_in s) = false.
Proof.
  intros F. unfold set_out, set_in, both_done. fields. rewrite F.
  split; destruct (_ =? 3); reflexivity.
Qed.

Lemma switch_both s :
  ic_ok s ->
  (counters_zero (set_in (set_out s)) /\ flag (set_in (set_out s)) = false) /\
  (counters_zero (set_out (set_in s)) /\ flag (set_out (set_in s)) = false).
Proof.
  destruct s as [sb0 sp0 rb0 rp0 rbo0 rpo0 fl0 ic0]. unfold ic_ok, counters_zero. cbn [ic].
  intros [-> | [-> | ->]]; cbn; repeat split; reflexivity.
Qed.

Lemma step_ic_ok c s o : ic_ok s -> ic_ok (fst (step c s o)).
Proof.
  intros H. destruct o; cbn [step fst].
  - rewrite send_op_fields. exact H.
  - rewrite recv_op_fields. exact H.
  - rewrite (set_out_fields s H). unfold ic_ok. fields. destruct (ic s =? 2); auto.
  - rewrite (set_in_fields s H). unfold ic_ok. fields. destruct (ic s =? 1); auto.
  - exact H.
Qed.

Lemma run_ic_ok c s ops : ic_ok s -> ic_ok (run c s ops).
Proof. revert s. induction ops as [|o r IH]; intros s H; cbn; [exact H|]. apply IH, step_ic_ok, H. Qed.

Lemma counts_nonneg ops :
  0 <= nrecv ops /\ 0 <= nsend ops /\
  (forallb op_len_ok ops = true -> 0 <= brecv ops /\ 0 <= bsend ops).
Proof.
  induction ops as [|o r (N1 & N2 & IH)]; cbn [nrecv nsend brecv bsend forallb]; [lia|].
  split; [destruct o; lia|]. split; [destruct o; lia|].
  intros [H1 H2]%andb_true_iff. specialize (IH H2). destruct o; cbn in H1; lia.
Qed.

Lemma nsend_nonneg ops : 0 <= nsend ops.
Proof. apply counts_nonneg. Qed.
Lemma bsend_nonneg ops : forallb op_len_ok ops = true -> 0 <= bsend ops.
Proof. intros H. apply counts_nonneg, H. Qed.

Lemma run_noset c mid : forall s,
  forallb (fun o => negb (is_set o)) mid = true ->
  ic (run c s mid) = ic s /\
  sp (run c s mid) = sp s + nsend mid /\ sb (run c s mid) = sb s + bsend mid /\
  rp (run c s mid) = rp s + nrecv mid /\ rb (run c s mid) = rb s + brecv mid.
Proof.
  induction mid as [|o r IH]; intros s H; cbn [run nsend bsend nrecv brecv].
  - repeat split; lia.
  - cbn [forallb] in H. apply andb_true_iff in H as [H1 H2].
    destruct (IH (fst (step c s o)) H2) as (-> & -> & -> & -> & ->).
    destruct o; try discriminate H1; cbn [step fst].
    + rewrite send_op_fields. fields. repeat split; lia.
    + rewrite recv_op_fields. fields. repeat split; lia.
    + repeat split; lia.
Qed.

(* the head of an iteration:
     if self.packetizer.need_rekey() and not self.in_kex: self._send_kex_init() *)
Definition start_kex (c : cfg) (klen : Z) (t : tstate) : tstate :=
  if flag (pk t) && negb (in_kex t) then send_kex_init c t klen else t.

Lemma titer_idle c klen t : alive t = true -> titer c klen t RIdle = start_kex c klen t.
Proof. intros A. unfold titer. rewrite A. reflexivity. Qed.

Lemma titer_data c klen t len :
  alive t = true ->
  titer c klen t (RData len) =
  let t1 := start_kex c klen t in
  mkT (fst (recv_op c (pk t1) len)) (in_kex t1) (lki t1)
      (negb (snd (recv_op c (pk t1) len) =? c_ssh)) (kexinits t1).
Proof.
  intros A. unfold titer. rewrite A. cbn [negb rd_len]. fold (start_kex c klen t). cbv zeta.
  destruct (recv_op c (pk (start_kex c klen t)) len) as [p2 code]. fields.
  destruct (code =? c_ssh); reflexivity.
Qed.

Lemma tstep_dead c k t e : alive t = false -> tstep c k t e = t.
Proof. intros D. destruct e; cbn [tstep]; [unfold titer|unfold tsend]; rewrite D; reflexivity. Qed.

Lemma trun_dead c k es t : alive t = false -> trun c k t es = t.
Proof.
  intros D. induction es as [|e r IH]; cbn [trun]; [reflexivity|].
  rewrite tstep_dead by exact D. exact IH.
Qed.

Lemma start_kex_alive c klen t : alive (start_kex c klen t) = alive t.
Proof. unfold start_kex. destruct (_ && _); reflexivity. Qed.

Lemma start_kex_skip c klen t : flag (pk t) = false -> start_kex c klen t = t.
Proof. intros F. unfold start_kex. rewrite F. reflexivity. Qed.

Lemma start_kex_up c klen t :
  flag (pk t) = true ->
  let t1 := start_kex c klen t in
  flag (pk t1) = true /\ in_kex t1 = true /\ ic (pk t1) = ic (pk t) /\
  rpo (pk t1) = rpo (pk t) /\ rbo (pk t1) = rbo (pk t).
Proof.
  intros F. unfold start_kex. rewrite F. destruct (in_kex t) eqn:K; cbn [andb negb].
  - auto.
  - unfold send_kex_init. rewrite send_op_fields, F. fields. auto.
Qed.

Lemma ndata_nonneg es : 0 <= ndata es.
Proof. induction es as [|[[]|]]; cbn [ndata]; lia. Qed.
Lemma bdata_nonneg es : forallb is_plain es = true -> 0 <= bdata es.
Proof.
  induction es as [|e r IH]; cbn [bdata forallb]; [lia|]. intros H. apply andb_true_iff in H as [H1 H2].
  specialize (IH H2). destruct e as [[]|]; cbn in H1; try discriminate; lia.
Qed.

(* nothing in the loop reads the KEXINIT count: the run from a shifted count is the shifted run *)
Definition shiftk (j : Z) (t : tstate) : tstate :=
  mkT (pk t) (in_kex t) (lki t) (alive t) (kexinits t + j).

Lemma send_kex_init_shift c k j t : send_kex_init c (shiftk j t) k = shiftk j (send_kex_init c t k).
Proof. unfold send_kex_init, shiftk. fields. f_equal. lia. Qed.

Lemma start_kex_shift c k j t : start_kex c k (shiftk j t) = shiftk j (start_kex c k t).
Proof.
  unfold start_kex. change (pk (shiftk j t)) with (pk t). change (in_kex (shiftk j t)) with (in_kex t).
  destruct (_ && _); [apply send_kex_init_shift|reflexivity].
Qed.

Lemma tstep_shift c k j t e : tstep c k (shiftk j t) e = shiftk j (tstep c k t e).
Proof.
  destruct e as [r|len]; cbn [tstep].
  - unfold titer. fold (start_kex c k t) (start_kex c k (shiftk j t)). rewrite start_kex_shift.
    change (alive (shiftk j t)) with (alive t). destruct (alive t); [|reflexivity]. cbn [negb].
    generalize (start_kex c k t). intros t1.
    destruct r; [reflexivity|..]; change (pk (shiftk j t1)) with (pk t1);
      destruct (recv_op c (pk t1) _) as [p2 code]; destruct (code =? c_ssh); try reflexivity.
    (* the peer's KEXINIT may be answered by ours *)
    change (lki (shiftk j t1)) with (lki t1). fields. destruct (lki t1); [reflexivity|].
    apply (send_kex_init_shift c k j (mkT p2 (in_kex t1) false true (kexinits t1))).
  - unfold tsend. change (alive (shiftk j t)) with (alive t). destruct (alive t); reflexivity.
Qed.

Lemma trun_shift c k j es : forall t, trun c k (shiftk j t) es = shiftk j (trun c k t es).
Proof. induction es as [|e r IH]; intros t; cbn [trun]; [reflexivity|]. rewrite tstep_shift. apply IH. Qed.

(* what sends, data packets and idle reads keep true of a live transport that started out fresh
   with k KEXINITs sent *)
Definition quiet_inv (k : Z) (t : tstate) : Prop :=
  alive t = true ->
  ic (pk t) = 0 /\ lki t = in_kex t /\ (in_kex t = true -> flag (pk t) = true) /\
  kexinits t = k + (if in_kex t then 1 else 0).

Lemma start_kex_quiet c klen k t : quiet_inv k t -> quiet_inv k (start_kex c klen t).
Proof.
  unfold start_kex. destruct (flag (pk t)) eqn:F; [|trivial].
  destruct (in_kex t) eqn:K; [trivial|]. cbn [andb negb].
  intros Q A. destruct (Q A) as (I & L & _ & X). rewrite K in X.
  unfold send_kex_init. rewrite send_op_fields, F. fields. repeat split; [exact I|lia].
Qed.

Lemma quiet_pk k t p al :
  quiet_inv k t -> alive t = true -> ic p = ic (pk t) -> (flag (pk t) = true -> flag p = true) ->
  quiet_inv k (mkT p (in_kex t) (lki t) al (kexinits t)).
Proof.
  intros Q A I M _. destruct (Q A) as (I0 & L & K & X). fields.
  repeat split; [congruence|exact L|auto|exact X].
Qed.

Lemma quiet_step c klen k t e : is_plain e = true -> quiet_inv k t -> quiet_inv k (tstep c klen t e).
Proof.
  intros P Q. destruct (alive t) eqn:A; [|rewrite tstep_dead by exact A; exact Q].
  destruct e as [[| len | | |]|len]; try discriminate P; cbn [tstep].
  - rewrite titer_idle by exact A. apply start_kex_quiet, Q.
  - rewrite titer_data by exact A. cbv zeta. rewrite recv_op_fields. fields.
    apply (quiet_pk k (start_kex c klen t)).
    + apply start_kex_quiet, Q.
    + rewrite start_kex_alive. exact A.
    + reflexivity.
    + fields. intros ->. reflexivity.
  - unfold tsend. rewrite A. rewrite send_op_fields.
    apply (quiet_pk k t); [exact Q|exact A|reflexivity|]. fields. intros ->. reflexivity.
Qed.

Lemma quiet_run c klen k es : forall t,
  forallb is_plain es = true -> quiet_inv k t -> quiet_inv k (trun c klen t es).
Proof.
  induction es as [|e r IH]; intros t P Q; cbn [trun]; [exact Q|].
  cbn [forallb] in P. apply andb_true_iff in P as [P1 P2]. apply IH; [exact P2|]. apply quiet_step; assumption.
Qed.

Lemma rekey_round_run c klen p kx a b n d :
  flag p = true -> ic p = 0 ->
  rpo p + 3 < OP c -> rbo p + (a + b + d) < OB c -> 0 <= a -> 0 <= b -> 0 <= d ->
  trun c klen (mkT p true true true kx) (rekey_round a b n d) = tfresh kx.
Proof.
  intros F I Hp Hb Ha Hb' Hd.
  assert (E1 : (OP c <=? rpo p + 1) || (OB c <=? rbo p + a) = false) by lia.
  assert (E2 : (OP c <=? rpo p + 1 + 1) || (OB c <=? rbo p + a + b) = false) by lia.
  assert (E3 : (OP c <=? rpo p + 1 + 1 + 1) || (OB c <=? rbo p + a + b + d) = false) by lia.
  unfold rekey_round. cbn [trun tstep].
  (* the peer's KEXINIT *)
  unfold titer at 3. fields. rewrite F. fields. cbn [rd_len].
  rewrite recv_op_fields, F, E1. fields. change (c_ok =? c_ssh) with false. fields.
  (* the peer's last kex message, our NEWKEYS, set_outbound_cipher *)
  unfold titer at 2. fields. cbn [rd_len].
  rewrite recv_op_fields. fields. rewrite E2. fields. change (c_ok =? c_ssh) with false. fields.
  rewrite send_op_fields, set_out_fields by (left; exact I). fields. rewrite I. cbn [Z.eqb]. fields.
  (* the peer's NEWKEYS, set_inbound_cipher *)
  unfold titer. fields. cbn [rd_len].
  rewrite recv_op_fields. fields. rewrite E3. fields. change (c_ok =? c_ssh) with false. fields.
  rewrite set_in_fields by (right; left; reflexivity). reflexivity.
Qed.

Lemma one_round c klen x k :
  round_ok c klen x -> trun c klen (tfresh k) (round_events x) = tfresh (k + 1).
Proof.
  destruct x as [tr [[[a b] n] d]]. unfold round_ok, round_events.
  intros (PL & A & F & Hp & Hb & Ha & Hb' & Hd).
  change (tfresh k) with (shiftk k (tfresh 0)).
  replace (tfresh (k + 1)) with (shiftk k (tfresh 1)) by (unfold shiftk, tfresh; fields; f_equal; lia).
  rewrite trun_shift. f_equal. rewrite trun_app.
  assert (Q : quiet_inv 0 (trun c klen (tfresh 0) tr)).
  { apply quiet_run; [exact PL|]. intros _. cbn. repeat split. discriminate. }
  generalize dependent (trun c klen (tfresh 0) tr). intros t A F Hp Hb Q.
  (* by rewriting: cbn would leave Qed to compare the two runs with rekey_round unfolded *)
  rewrite trun_cons. cbn [tstep]. rewrite (titer_idle c klen t A).
  apply (start_kex_quiet c klen) in Q. rewrite <- (start_kex_alive c klen t) in A.
  destruct (start_kex_up c klen t F) as (F1 & K1 & _ & Hp1 & Hb1). rewrite <- Hp1 in Hp. rewrite <- Hb1 in Hb.
  destruct (start_kex c klen t) as [p ik lk al kx]. cbn [pk in_kex lki alive kexinits] in *. subst ik al.
  destruct (Q eq_refl) as (I & L & _ & X). cbn [pk in_kex lki kexinits] in I, L, X. subst lk kx.
  apply rekey_round_run; assumption.
Qed.
